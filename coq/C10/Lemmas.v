(* Three invariants in turn: the input is ast_shape; normalized, and outside NestedEmptyList, it is
   shape (normalized_shape); merge needs and keeps good, which is shape with a non-empty path. *)
From V Require Import Base.Text Base.Lists C10.Model.
From Coq Require Import Permutation Setoid Morphisms.
Local Open Scope nat_scope.
Local Open Scope list_scope.

Section TreeInd.
Variable P : tree -> Prop.
Hypothesis Hnone : forall p v a c, P (Node p None v a c).
Hypothesis Hsome : forall p l v a c, Forall P l -> P (Node p (Some l) v a c).
Fixpoint tree_ind' (t : tree) : P t :=
  match t with
  | Node p None v a c => Hnone p v a c
  | Node p (Some l) v a c =>
      Hsome p l v a c
        ((fix go (l : list tree) : Forall P l :=
            match l return Forall P l with
            | [] => Forall_nil P
            | x :: r => Forall_cons x (tree_ind' x) (go r)
            end) l)
  end.
End TreeInd.

Lemma tree_ind_kids (P : tree -> Prop) :
  (forall p k v a c, (forall l x, k = Some l -> In x l -> P x) -> P (Node p k v a c)) ->
  forall t, P t.
Proof.
  intros H. induction t as [p v a c|p l v a c IH] using tree_ind'; apply H; intros l0 x E.
  - discriminate.
  - inversion E; subst. rewrite Forall_forall in IH. apply IH.
Qed.

Lemma SameSet_app {A} (a1 a2 b1 b2 : list A) :
  SameSet a1 a2 -> SameSet b1 b2 -> SameSet (a1 ++ b1) (a2 ++ b2).
Proof. intros Ha Hb x; rewrite !in_app_iff, (Ha x), (Hb x); reflexivity. Qed.
Lemma SameSet_app_comm {A} (a b : list A) : SameSet (a ++ b) (b ++ a).
Proof. intros x; rewrite !in_app_iff; tauto. Qed.

Global Instance SameSet_equiv {A} : Equivalence (@SameSet A).
Proof.
  split.
  - intros l x. reflexivity.
  - intros l1 l2 H x. symmetry. apply H.
  - intros l1 l2 l3 H1 H2 x. rewrite (H1 x). apply H2.
Qed.
Global Instance SameSet_app_proper {A} : Proper (SameSet ==> SameSet ==> SameSet) (@app A).
Proof. intros a1 a2 Ha b1 b2 Hb. apply SameSet_app; assumption. Qed.

Lemma SameSet_perm {A} (l1 l2 : list A) : Permutation l1 l2 -> SameSet l1 l2.
Proof. intros H x; split; apply Permutation_in; [|symmetry]; exact H. Qed.
Lemma SameSet_map {A B} (f : A -> B) (l1 l2 : list A) :
  SameSet l1 l2 -> SameSet (map f l1) (map f l2).
Proof.
  intros H y; rewrite !in_map_iff; split; intros [x [E Hx]]; exists x; split; auto; apply H; auto.
Qed.
Lemma SameSet_filter {A} (f : A -> bool) (l1 l2 : list A) :
  SameSet l1 l2 -> SameSet (filter f l1) (filter f l2).
Proof. intros H x; rewrite !filter_In, (H x); reflexivity. Qed.
Lemma SameSet_flat_map {A B} (f g : A -> list B) (l : list A) :
  Forall (fun x => SameSet (f x) (g x)) l -> SameSet (flat_map f l) (flat_map g l).
Proof.
  intros H y; rewrite !in_flat_map; rewrite Forall_forall in H.
  split; intros [x [Hx Hy]]; exists x; split; auto; apply (H x Hx); auto.
Qed.
Lemma SameSet_flat_map_l {A B} (f : A -> list B) (l1 l2 : list A) :
  SameSet l1 l2 -> SameSet (flat_map f l1) (flat_map f l2).
Proof.
  intros H y; rewrite !in_flat_map; split; intros [x [Hx Hy]]; exists x; split; auto; apply H; auto.
Qed.
Lemma SameSet_dup {A} (a b : list A) : (forall x, In x b -> In x a) -> SameSet (a ++ b) a.
Proof. intros H x; rewrite in_app_iff; split; [intros [Hx|Hx]; auto|auto]. Qed.
Section SortPerm.
Variable A : Type.
Variable cmp : A -> A -> comparison.
Lemma sort_perm l : Permutation (sort_by cmp l) l.
Proof.
  apply (isort_perm (fun x y => match cmp x y with Gt => false | _ => true end) (insert cmp)).
  - reflexivity.
  - intros x y r. cbn [insert]. destruct (cmp x y); reflexivity.
Qed.
End SortPerm.

Lemma forallb_sort {A} (f : A -> bool) cmp l : forallb f (sort_by cmp l) = forallb f l.
Proof. apply forallb_perm, sort_perm. Qed.
Lemma flat_map_sort {A B} (f : A -> list B) cmp l :
  SameSet (flat_map f (sort_by cmp l)) (flat_map f l).
Proof. apply SameSet_flat_map_l, SameSet_perm, sort_perm. Qed.

Lemma filter_flat_map {A B} (f : B -> bool) (g : A -> list B) l :
  filter f (flat_map g l) = flat_map (fun x => filter f (g x)) l.
Proof.
  induction l as [|x r IH]; cbn [flat_map]; auto.
  rewrite filter_app, IH; reflexivity.
Qed.
Lemma flat_map_flat_map {A B C} (f : B -> list C) (g : A -> list B) l :
  flat_map f (flat_map g l) = flat_map (fun x => flat_map f (g x)) l.
Proof.
  induction l as [|x r IH]; cbn [flat_map]; auto.
  rewrite flat_map_app, IH. reflexivity.
Qed.
Lemma flat_map_map {A B C} (f : B -> list C) (g : A -> B) l :
  flat_map f (map g l) = flat_map (fun x => f (g x)) l.
Proof. induction l as [|x r IH]; cbn [flat_map map]; auto. rewrite IH; reflexivity. Qed.
Lemma flat_map_ext_in {A B} (f g : A -> list B) l :
  (forall x, In x l -> f x = g x) -> flat_map f l = flat_map g l.
Proof.
  induction l as [|x r IH]; intros H; cbn [flat_map]; auto.
  rewrite (H x (or_introl eq_refl)), IH; auto. intros y Hy; apply H; right; auto.
Qed.
Lemma forallb_map' {A B} (f : B -> bool) (g : A -> B) l :
  forallb f (map g l) = forallb (fun x => f (g x)) l.
Proof. induction l as [|x l IH]; cbn [map forallb]; auto. rewrite IH; reflexivity. Qed.
Lemma forallb_In {A} (f : A -> bool) l x : forallb f l = true -> In x l -> f x = true.
Proof. intros H. rewrite forallb_forall in H. apply H. Qed.
Lemma forallb_cut {A} (f : A -> bool) n l :
  forallb f l = forallb f (firstn n l) && forallb f (skipn n l).
Proof. rewrite <- forallb_app, firstn_skipn. reflexivity. Qed.
Lemma forallb_firstn {A} (f : A -> bool) n l : forallb f l = true -> forallb f (firstn n l) = true.
Proof. rewrite (forallb_cut f n l), andb_true_iff. intros H. apply H. Qed.
Lemma forallb_skipn {A} (f : A -> bool) n l : forallb f l = true -> forallb f (skipn n l) = true.
Proof. rewrite (forallb_cut f n l), andb_true_iff. intros H. apply H. Qed.
Lemma skipn_nonempty {A} n (p : list A) : n < length p -> skipn n p <> [].
Proof.
  intros H E. apply (f_equal (@length A)) in E. rewrite skipn_length in E. cbn [length] in E. lia.
Qed.
Lemma rev_cons_eq {A} (p : list A) x rq : rev p = x :: rq -> p = rev rq ++ [x].
Proof. exact (rev_eq_app p [x] rq). Qed.
Lemma nth_error_map' {A B} (f : A -> B) l : forall i y,
  nth_error (map f l) i = Some y -> exists x, nth_error l i = Some x /\ f x = y.
Proof.
  intros i y H. rewrite nth_error_map in H.
  destruct (nth_error l i) as [x|]; [|discriminate]. inversion H. eauto.
Qed.
Lemma removelast_split {A} n (p : list A) :
  n < length p -> removelast p = firstn n p ++ removelast (skipn n p).
Proof.
  intros H. rewrite <- (firstn_skipn n p) at 1.
  apply removelast_app. apply skipn_nonempty; assumption.
Qed.
Lemma fold_left_map' {A B C} (f : A -> C -> A) (g : B -> C) l a :
  fold_left f (map g l) a = fold_left (fun x y => f x (g y)) l a.
Proof. revert a; induction l as [|x l IH]; intros a; cbn [map fold_left]; auto. Qed.
Lemma fold_left_flat_map {A B C} (f : A -> C -> A) (g : B -> list C) l a :
  fold_left f (flat_map g l) a = fold_left (fun x y => fold_left f (g y) x) l a.
Proof.
  revert a; induction l as [|x l IH]; intros a; cbn [flat_map fold_left]; auto.
  rewrite fold_left_app. apply IH.
Qed.
Lemma firstn_length_app {A} (l r : list A) : firstn (length l) (l ++ r) = l.
Proof. rewrite firstn_app, Nat.sub_diag, firstn_all. apply app_nil_r. Qed.
Lemma skipn_length_app {A} (l r : list A) : skipn (length l) (l ++ r) = r.
Proof. rewrite skipn_app, Nat.sub_diag, skipn_all. reflexivity. Qed.
Lemma existsb_map_ext {A} (f : A -> bool) (g : A -> A) l :
  (forall x, In x l -> f (g x) = f x) -> existsb f (map g l) = existsb f l.
Proof.
  induction l as [|x r IH]; intros H; [reflexivity|]. cbn [map existsb].
  rewrite (H x (or_introl eq_refl)), IH; [reflexivity|]. intros y Hy. apply H. right; exact Hy.
Qed.
Lemma list_eqb_flat_map {A B} (f : A -> A -> bool) (g : A -> list B) a :
  Forall (fun x => forall y, f x y = true -> g x = g y) a ->
  forall b, list_eqb f a b = true -> flat_map g a = flat_map g b.
Proof.
  induction 1 as [|x r Hx _ IH]; intros [|y b]; cbn [list_eqb]; try discriminate; auto.
  rewrite andb_true_iff. intros [H1 H2]. cbn [flat_map]. rewrite (Hx y H1), (IH b H2). reflexivity.
Qed.
Lemma filter3_perm {A} (g : A -> nat) (l : list A) :
  (forall t, g t < 3) ->
  Permutation (filter (fun t => Nat.eqb (g t) 0) l ++ filter (fun t => Nat.eqb (g t) 1) l
               ++ filter (fun t => Nat.eqb (g t) 2) l) l.
Proof.
  intros Hg. induction l as [|x r IH]; [constructor|].
  cbn [filter]. specialize (Hg x).
  destruct (g x) as [|[|[|n]]] eqn:E; try lia; cbn [Nat.eqb].
  - cbn [app]. constructor. exact IH.
  - cbn [app]. apply Permutation_sym, Permutation_cons_app, Permutation_sym. exact IH.
  - rewrite app_assoc. apply Permutation_sym, Permutation_cons_app, Permutation_sym.
    rewrite <- app_assoc. exact IH.
Qed.
Lemma concat_filter_nonnil {A} (L : list (list A)) :
  concat (filter (fun l => negb (is_nil l)) L) = concat L.
Proof.
  induction L as [|l L IH]; [reflexivity|]. cbn [filter concat].
  destruct l; cbn [is_nil negb concat app]; rewrite IH; reflexivity.
Qed.
Lemma concat_map_sort_perm {A} (c : A -> A -> comparison) (L : list (list A)) :
  Permutation (concat (map (sort_by c) L)) (concat L).
Proof.
  induction L as [|l L IH]; [constructor|]. cbn [map concat].
  apply Permutation_app; [apply sort_perm|exact IH].
Qed.

Definition vden (st : list sseg) (t : tree) : list (list sseg) := filter valid_state (den st t).
Fixpoint gden (st : list sseg) (p : list gseg) : list (list sseg) :=
  match p with
  | [] => [st]
  | GS s :: r => gden (step st s) r
  | GL l :: _ => flat_map (den st) l
  end.

Lemma gden_app_GS st q r : gden st (map GS q ++ r) = gden (fold_left step q st) r.
Proof. revert st; induction q as [|s q IH]; intros st; cbn [map app gden fold_left]; auto. Qed.

Lemma path_is_empty_some p l v a c : path_is_empty (Node p (Some l) v a c) = false.
Proof. destruct p; reflexivity. Qed.
Lemma path_nonempty t : path_is_empty t = false -> 0 < length (path t).
Proof.
  destruct t as [[|s p] [l|] v a c]; unfold path_is_empty, path; cbn [pre kids klist map app length];
    intros H; try discriminate; lia.
Qed.
Lemma app_path_nonempty p f v a c :
  path_is_empty f = false -> path_is_empty (Node (p ++ pre f) (kids f) v a c) = false.
Proof.
  destruct f as [[|s pf] [l|] vf af cf]; cbn [pre kids]; try discriminate; intros _.
  - apply path_is_empty_some.
  - destruct p; reflexivity.
  - destruct p; reflexivity.
Qed.

Lemma den_gden st t : path_is_empty t = false -> den st t = gden st (path t).
Proof.
  destruct t as [p k v a c]. intros Hne. unfold path. cbn [pre kids]. rewrite gden_app_GS.
  destruct p, k; try discriminate; reflexivity.
Qed.
Lemma den_some st p l v a c :
  den st (Node p (Some l) v a c) = flat_map (den (fold_left step p st)) l.
Proof. destruct p; reflexivity. Qed.
Lemma den_none st p v a c : p <> [] -> den st (Node p None v a c) = [fold_left step p st].
Proof. destruct p; [congruence|reflexivity]. Qed.
Lemma den_splice st p k v a c :
  path_is_empty k = false ->
  den st (Node (p ++ pre k) (kids k) v a c) = den (fold_left step p st) k.
Proof.
  intros Hne. rewrite !den_gden by auto using app_path_nonempty.
  unfold path. cbn [pre kids]. rewrite map_app, <- app_assoc. apply gden_app_GS.
Qed.

Lemma step_nonempty st s : step st s <> [].
Proof.
  destruct s as [n a|[b|]|a|a|]; destruct st as [|t st']; cbn [step]; try discriminate.
  destruct (aliasable t); discriminate.
Qed.
Lemma fold_step_nonempty' p st : st <> [] -> fold_left step p st <> [].
Proof.
  revert st; induction p as [|s r IH]; intros st Hp; cbn [fold_left]; auto.
  apply IH, step_nonempty.
Qed.
Lemma fold_step_nonempty p st : p <> [] -> fold_left step p st <> [].
Proof.
  destruct p as [|s r]; [congruence|]. intros _. cbn [fold_left]. apply fold_step_nonempty', step_nonempty.
Qed.
Lemma fold_snoc st q s : fold_left step (q ++ [s]) st = step (fold_left step q st) s.
Proof. rewrite fold_left_app. reflexivity. Qed.

Lemma vden_simple st p v a c :
  p <> [] -> vden st (Node p None v a c) = filter valid_state [fold_left step p st].
Proof. intros Hp. unfold vden. rewrite den_none by assumption. reflexivity. Qed.
Lemma vden_list st p l v a c :
  vden st (Node p (Some l) v a c) = flat_map (vden (fold_left step p st)) l.
Proof. unfold vden. rewrite den_some. apply filter_flat_map. Qed.

Lemma split_path_path q k : split_path (map GS q ++ klist k) = (q, k).
Proof.
  induction q as [|s q IH]; cbn [map app split_path].
  - destruct k; reflexivity.
  - rewrite IH. reflexivity.
Qed.
Lemma split_path_GL q l r : split_path (map GS q ++ GL l :: r) = (q, Some l).
Proof.
  induction q as [|s q IH]; cbn [map app split_path]; auto. rewrite IH; reflexivity.
Qed.
Lemma from_path_path q k : from_path (map GS q ++ klist k) = Node q k None None false.
Proof. unfold from_path, of_path. rewrite split_path_path. reflexivity. Qed.
Lemma of_path_list q L v a c : of_path (map GS q ++ [GL L]) v a c = Node q (Some L) v a c.
Proof. unfold of_path. rewrite split_path_GL. reflexivity. Qed.
Lemma of_path_fields np v a c : vis (of_path np v a c) = v /\ attrs (of_path np v a c) = a.
Proof. unfold of_path. destruct (split_path np). auto. Qed.

Lemma den_of_path st p v a c : p <> [] -> den st (of_path p v a c) = gden st p.
Proof.
  intros Hp. unfold of_path.
  assert (E : gden st p = gden st (map GS (fst (split_path p)) ++ klist (snd (split_path p)))).
  { clear Hp. revert st; induction p as [|[s|l] r IH]; intros st; cbn [gden split_path]; auto.
    rewrite IH. destruct (split_path r) as [q k]. reflexivity. }
  rewrite E. destruct (split_path p) as [q k] eqn:Eq. apply den_gden.
  destruct p as [|[s|l] r]; [congruence| |]; cbn [split_path] in Eq.
  - destruct (split_path r). inversion Eq. reflexivity.
  - inversion Eq. reflexivity.
Qed.

Definition states_leaves (c : N * option N) (sts : list (list sseg)) : list leaf :=
  map (fun p => (fst c, snd c, p)) (map (@rev sseg) (filter valid_state sts)).

Lemma leaves_states t : leaves t = states_leaves (cls t) (den [] t).
Proof. reflexivity. Qed.
Lemma states_leaves_app c s1 s2 :
  states_leaves c (s1 ++ s2) = states_leaves c s1 ++ states_leaves c s2.
Proof. unfold states_leaves. rewrite filter_app, !map_app. reflexivity. Qed.
Lemma states_leaves_valid c s1 s2 :
  SameSet (filter valid_state s1) (filter valid_state s2) ->
  SameSet (states_leaves c s1) (states_leaves c s2).
Proof. intros H. apply SameSet_map, SameSet_map, H. Qed.
Lemma leaves_cls t lf : In lf (leaves t) -> (fst (fst lf), snd (fst lf)) = cls t.
Proof.
  unfold leaves. intros H. apply in_map_iff in H. destruct H as [p [<- _]]. reflexivity.
Qed.

Lemma Leaves_app l1 l2 : Leaves (l1 ++ l2) = Leaves l1 ++ Leaves l2.
Proof. apply flat_map_app. Qed.
Lemma Leaves_perm l1 l2 : Permutation l1 l2 -> SameSet (Leaves l1) (Leaves l2).
Proof. intros H. apply SameSet_flat_map_l, SameSet_perm, H. Qed.
Lemma flat_map_leaves_class c l :
  (forall f, In f l -> cls f = c) ->
  flat_map leaves l = states_leaves c (flat_map (den []) l).
Proof.
  induction l as [|x r IH]; intros H; [reflexivity|].
  cbn [flat_map]. rewrite states_leaves_app, IH by (intros f Hf; apply H; right; assumption).
  rewrite leaves_states, (H x (or_introl eq_refl)). reflexivity.
Qed.

Lemma wf_kid_inv k :
  wf_kid k = true -> vis k = None /\ attrs k = None /\ path_is_empty k = false /\ kids_wf k = true.
Proof.
  destruct k as [p kk v a c]. cbn [wf_kid vis attrs]. unfold kids_wf. cbn [kids].
  rewrite !andb_true_iff, !negb_true_iff.
  intros [[[Hv Ha] Hp] Hk]. destruct v, a; try discriminate. auto.
Qed.
Lemma tree_eta k : Node (pre k) (kids k) (vis k) (attrs k) (cmt k) = k.
Proof. destruct k; reflexivity. Qed.

Lemma alias_free_app x y : alias_free (x ++ y) = alias_free x && alias_free y.
Proof. apply forallb_app. Qed.
Lemma alias_free_removelast p : alias_free p = true -> alias_free (removelast p) = true.
Proof.
  destruct p as [|s p] using rev_ind; [reflexivity|].
  rewrite removelast_last, alias_free_app. intros H. apply andb_true_iff in H. tauto.
Qed.
Lemma alias_last_splice p f v a c :
  alias_free p = true -> alias_last f = true ->
  alias_last (Node (p ++ pre f) (kids f) v a c) = true.
Proof.
  destruct f as [pf [L|] vf af cf]; cbn [pre kids alias_last]; intros Hp Hf.
  - rewrite alias_free_app, Hp. exact Hf.
  - destruct pf as [|s pf'].
    + rewrite app_nil_r. apply alias_free_removelast; assumption.
    + rewrite removelast_app by discriminate. rewrite alias_free_app, Hp. exact Hf.
Qed.
Lemma noalias_splice p f v a c :
  alias_free p = true -> noalias f = true -> noalias (Node (p ++ pre f) (kids f) v a c) = true.
Proof.
  destruct f as [pf kf vf af cf]. cbn [pre kids noalias]. intros Hp Hf.
  rewrite alias_free_app, Hp. exact Hf.
Qed.

(* what norm_simple does to a path without list: nothing, or one of imports.rs:554-604 *)
Inductive simp (v a : option N) : list sseg -> list sseg -> Prop :=
| simp_same p : simp v a p p
| simp_bare : v <> None -> a = None -> simp v a [Slf None] []
| simp_self q : q <> [] -> simp v a (q ++ [Slf None]) q
| simp_alias q n r : simp v a (q ++ [Ident n None; Slf (Some r)]) (q ++ [Ident n (Some r)]).

Lemma norm_simple_spec p v a c :
  exists p', norm_simple p v a c = Node p' None v a c /\ simp v a p p'.
Proof.
  unfold norm_simple.
  destruct (rev p) as [|last rq] eqn:Er; [eexists; split; [reflexivity|constructor]|].
  apply rev_cons_eq in Er. subst p.
  destruct (negb (is_some a) && _) eqn:Eb.
  - (* the test of imports.rs:554 holds only of a bare  self  under a visibility, without attributes *)
    destruct a; [discriminate|]. destruct last as [|[|]| | |], rq, v; try discriminate.
    exists []. split; [reflexivity|]. apply simp_bare; congruence.
  - clear Eb.
    destruct last as [n al|[b|]|al|al|]; try (eexists; split; [reflexivity|constructor]).
    + (* self as b : moved to a preceding identifier without alias (simp_alias), else kept *)
      destruct rq as [|[n [al|]|al|al|al|] rq']; try (eexists; split; [reflexivity|constructor]).
      cbn [rev]. rewrite <- app_assoc. eexists; split; [reflexivity|apply simp_alias].
    + (* self : kept when alone (simp_same), else dropped (simp_self) *)
      destruct rq as [|t rq']; eexists; (split; [reflexivity|]); [constructor|].
      apply simp_self. cbn [rev]. intros E; apply app_eq_nil in E; destruct E; discriminate.
Qed.

Lemma norm_simple_den p v a c st :
  (v = None \/ st = []) ->
  vden st (norm_simple p v a c) = vden st (Node p None v a c).
Proof.
  intros Hv. destruct (norm_simple_spec p v a c) as [p' [-> [?|Hn Ha|q Hq|q n r]]].
  - reflexivity.
  - (* simp_bare needs a visibility; the bare  self  it drops is no valid state at st = [] only *)
    destruct Hv as [Hv| ->]; [contradiction|reflexivity].
  - rewrite !vden_simple, fold_snoc by (auto; intros E; apply app_eq_nil in E; destruct E; discriminate).
    pose proof (fold_step_nonempty q st Hq) as Hf.
    destruct (fold_left step q st); [congruence|reflexivity].
  - rewrite !vden_simple by (intros E; apply app_eq_nil in E; destruct E; discriminate).
    rewrite !fold_left_app. reflexivity.
Qed.
Lemma norm_simple_alias_last P v a c :
  alias_free (removelast P) = true -> alias_last (norm_simple P v a c) = true.
Proof.
  destruct (norm_simple_spec P v a c) as [p' [-> [?|Hn Ha|q Hq|q n r]]]; cbn [alias_last]; auto.
  - rewrite removelast_last. apply alias_free_removelast.
  - change (q ++ [Ident n None; Slf (Some r)]) with (q ++ [Ident n None] ++ [Slf (Some r)]).
    rewrite app_assoc, !removelast_last, alias_free_app.
    intros H. apply andb_true_iff in H. tauto.
Qed.
Lemma norm_simple_noalias P v a c :
  alias_free P = true -> noalias (norm_simple P v a c) = true.
Proof.
  destruct (norm_simple_spec P v a c) as [p' [-> [?|Hn Ha|q Hq|q n r]]];
    cbn [noalias]; rewrite ?andb_true_r; auto.
  - rewrite alias_free_app. intros H. apply andb_true_iff in H. tauto.
  - rewrite alias_free_app. cbn [alias_free forallb salias is_some negb].
    rewrite !andb_false_r. discriminate.
Qed.

(* a sole nested item is spliced into its parent (imports.rs:608-620) *)
Definition splice (l : list tree) : bool :=
  match l with [k] => negb (is_self_string k) && negb (has_comment k) | _ => false end.

Lemma splice_inv l :
  splice l = true -> exists k, l = [k] /\ is_self_string k = false /\ cmt k = false.
Proof.
  destruct l as [|k [|k2 r]]; try discriminate. cbn [splice]. unfold has_comment.
  rewrite andb_true_iff, !negb_true_iff. eauto.
Qed.

Lemma norm_list cmp acc v a c p l v0 a0 c0 :
  norm cmp acc v a c (Node p (Some l) v0 a0 c0) =
  match l with
  | [] => if is_some a then Node (acc ++ p) (Some []) v a c else Node [] None v a c
  | k :: _ =>
      if splice l then norm cmp (acc ++ p) v a c k
      else Node (acc ++ p) (Some (sort_by cmp (map (normalize cmp) l))) v a c
  end.
Proof. destruct l as [|k [|k2 r]]; reflexivity. Qed.

Section NormInd.
Variable cmp : tree -> tree -> comparison.
Variable R : list sseg -> option N -> option N -> bool -> tree -> tree -> Prop.
Hypothesis Rsimple : forall acc v a c p v0 a0 c0,
  R acc v a c (Node p None v0 a0 c0) (norm_simple (acc ++ p) v a c).
Hypothesis Rempty : forall acc v a c p v0 a0 c0,
  R acc v a c (Node p (Some []) v0 a0 c0) (Node [] None v a c).
Hypothesis Rsole : forall acc v a c p k v0 a0 c0 r,
  splice [k] = true -> R (acc ++ p) v a c k r -> R acc v a c (Node p (Some [k]) v0 a0 c0) r.
Hypothesis Rlist : forall acc v a c p l v0 a0 c0,
  Forall (fun k => R [] (vis k) (attrs k) (cmt k) k (normalize cmp k)) l ->
  R acc v a c (Node p (Some l) v0 a0 c0)
    (Node (acc ++ p) (Some (sort_by cmp (map (normalize cmp) l))) v a c).
Lemma norm_ind t : forall acc v a c, R acc v a c t (norm cmp acc v a c t).
Proof.
  induction t as [p v0 a0 c0|p l v0 a0 c0 IH] using tree_ind'; intros acc v a c; cbn [norm kids pre].
  - apply Rsimple.
  - assert (HL : Forall (fun k => R [] (vis k) (attrs k) (cmt k) k (normalize cmp k)) l).
    { eapply Forall_impl; [|exact IH]. intros k Hk. apply Hk. }
    destruct l as [|k [|k2 r]].
    + destruct (is_some a); [apply (Rlist _ _ _ _ _ []), HL|apply Rempty].
    + destruct (_ && _) eqn:E; [apply Rsole, (Forall_inv IH); exact E|apply (Rlist _ _ _ _ _ [k]), HL].
    + apply (Rlist _ _ _ _ _ (k :: k2 :: r)), HL.
Qed.
End NormInd.

Section Normalize.
Variable cmp : tree -> tree -> comparison.

Lemma norm_fields t : forall acc v a c,
  vis (norm cmp acc v a c t) = v /\ attrs (norm cmp acc v a c t) = a /\ cmt (norm cmp acc v a c t) = c.
Proof.
  apply (norm_ind cmp (fun _ v a c _ r => vis r = v /\ attrs r = a /\ cmt r = c)); auto.
  intros acc v a c p _ _ _. destruct (norm_simple_spec (acc ++ p) v a c) as [p' [-> _]]. auto.
Qed.
Lemma normalize_fields t :
  vis (normalize cmp t) = vis t /\ attrs (normalize cmp t) = attrs t /\
  cmt (normalize cmp t) = cmt t.
Proof. apply norm_fields. Qed.

Lemma norm_den t : forall acc v a c,
  kids_wf t = true -> forall st, (v = None \/ st = []) ->
  SameSet (vden st (norm cmp acc v a c t)) (vden st (Node (acc ++ pre t) (kids t) v a c)).
Proof.
  apply (norm_ind cmp (fun acc v a c t r => kids_wf t = true -> forall st, v = None \/ st = [] ->
           SameSet (vden st r) (vden st (Node (acc ++ pre t) (kids t) v a c)))); cbn [pre kids].
  - intros acc v a c p v0 a0 c0 _ st Hv. rewrite norm_simple_den by assumption. reflexivity.
  - intros acc v a c p v0 a0 c0 _ st _. rewrite vden_list. reflexivity.
  - intros acc v a c p k v0 a0 c0 r _ IH Hwf st Hv.
    destruct (wf_kid_inv k (forallb_In _ _ k Hwf (or_introl eq_refl))) as [_ [_ [Hne Hkk]]].
    rewrite (IH Hkk st Hv). unfold vden. rewrite den_splice, den_some by assumption.
    cbn [flat_map]. rewrite app_nil_r. reflexivity.
  - intros acc v a c p l v0 a0 c0 IH Hwf st _.
    rewrite !vden_list, flat_map_sort, flat_map_map. apply SameSet_flat_map.
    rewrite Forall_forall in *. intros k Hk.
    destruct (wf_kid_inv k (forallb_In _ _ k Hwf Hk)) as [Hvk [_ [_ Hkk]]].
    rewrite (IH k Hk Hkk _ (or_introl Hvk)). cbn [app]. rewrite tree_eta. reflexivity.
Qed.

Lemma normalize_leaves t :
  kids_wf t = true -> SameSet (leaves (normalize cmp t)) (leaves t).
Proof.
  intros Hwf. destruct (normalize_fields t) as [Hv [Ha _]].
  rewrite !leaves_states. unfold cls. rewrite Hv, Ha. unfold normalize. apply states_leaves_valid.
  pose proof (norm_den t [] (vis t) (attrs t) (cmt t) Hwf [] (or_intror eq_refl)) as H.
  cbn [app] in H. rewrite tree_eta in H. exact H.
Qed.

Definition kids_comment (t : tree) : bool :=
  match kids t with Some l => existsb contains_comment l | None => false end.
Lemma contains_comment_eq t : contains_comment t = cmt t || kids_comment t.
Proof. destruct t as [p [l|] v a c]; reflexivity. Qed.

Lemma contains_comment_norm t : forall acc v a c,
  contains_comment (norm cmp acc v a c t) = c || kids_comment t.
Proof.
  apply (norm_ind cmp (fun _ _ _ c t r => contains_comment r = c || kids_comment t)).
  - intros acc v a c p v0 a0 c0. destruct (norm_simple_spec (acc ++ p) v a c) as [q [-> _]]. reflexivity.
  - reflexivity.
  - (* the spliced kid has no comment of its own *)
    intros acc v a c p k v0 a0 c0 r Hsp ->. destruct (splice_inv _ Hsp) as [k' [[= ->] [_ Hc]]].
    unfold kids_comment at 2. cbn [kids existsb].
    rewrite orb_false_r, (contains_comment_eq k'), Hc. reflexivity.
  - intros acc v a c p l v0 a0 c0 IH. rewrite contains_comment_eq. unfold kids_comment. cbn [cmt kids].
    f_equal. rewrite (existsb_perm _ _ _ (sort_perm _ cmp _)). apply existsb_map_ext.
    rewrite Forall_forall in IH. intros x Hx. rewrite (IH x Hx). symmetry. apply contains_comment_eq.
Qed.

Lemma contains_comment_normalize t : contains_comment (normalize cmp t) = contains_comment t.
Proof. unfold normalize. rewrite contains_comment_norm. symmetry. apply contains_comment_eq. Qed.
Lemma passthrough_normalize t : passthrough (normalize cmp t) = passthrough t.
Proof.
  unfold passthrough. rewrite contains_comment_normalize, (proj1 (proj2 (normalize_fields t))). reflexivity.
Qed.

Section NormKeeps.
Variable P : tree -> bool.
Hypothesis P_list : forall p l v a c, P (Node p (Some l) v a c) = alias_free p && forallb P l.
Hypothesis P_nil : forall v a c, P (Node [] None v a c) = true.
Hypothesis P_simple : forall acc p v0 a0 c0 v a c,
  alias_free acc = true -> P (Node p None v0 a0 c0) = true -> P (norm_simple (acc ++ p) v a c) = true.
Lemma norm_keeps t : forall acc v a c,
  alias_free acc = true -> P t = true -> P (norm cmp acc v a c t) = true.
Proof.
  apply (norm_ind cmp (fun acc _ _ _ t r => alias_free acc = true -> P t = true -> P r = true)).
  - intros acc v a c p v0 a0 c0. apply P_simple.
  - intros acc v a c p v0 a0 c0 _ _. apply P_nil.
  - intros acc v a c p k v0 a0 c0 r _ IH Hacc Ht. rewrite P_list in Ht. cbn [forallb] in Ht.
    rewrite andb_true_r in Ht. apply andb_true_iff in Ht. destruct Ht as [Hp Hk].
    apply IH; [rewrite alias_free_app, Hacc, Hp; reflexivity|exact Hk].
  - intros acc v a c p l v0 a0 c0 IH Hacc Ht. rewrite P_list in *.
    apply andb_true_iff in Ht. destruct Ht as [Hp Hl].
    rewrite alias_free_app, Hacc, Hp, forallb_sort, forallb_map'. apply forallb_forall.
    rewrite Forall_forall in IH. intros k Hk. apply IH; [assumption|reflexivity|].
    apply (forallb_In _ _ k Hl Hk).
Qed.
End NormKeeps.

Lemma normalize_alias_last t : alias_last t = true -> alias_last (normalize cmp t) = true.
Proof.
  apply (norm_keeps alias_last); [reflexivity|reflexivity| |reflexivity].
  intros acc p v0 a0 c0 v a c Hacc Ht. apply norm_simple_alias_last.
  apply (alias_last_splice acc (Node p None v0 a0 c0) v a c Hacc Ht).
Qed.
Lemma normalize_noalias t : noalias t = true -> noalias (normalize cmp t) = true.
Proof.
  apply (norm_keeps noalias); [reflexivity|reflexivity| |reflexivity].
  intros acc p v0 a0 c0 v a c Hacc Ht. apply norm_simple_noalias.
  cbn [noalias] in Ht. rewrite andb_true_r in Ht. rewrite alias_free_app, Hacc, Ht. reflexivity.
Qed.
End Normalize.

Lemma no_empty_kid_inv p l v a c :
  no_empty_kid (Node p (Some l) v a c) = true ->
  forall k, In k l -> path_is_empty k = false /\ no_empty_kid k = true.
Proof.
  cbn [no_empty_kid]. rewrite forallb_forall. intros H k Hk.
  specialize (H k Hk). apply andb_true_iff in H. destruct H as [H1 H2].
  apply negb_true_iff in H1. auto.
Qed.
Lemma shape_inv t : shape t = true -> no_empty_kid t = true /\ alias_last t = true.
Proof. unfold shape. intros H; apply andb_true_iff in H; exact H. Qed.
Lemma shape_kids p l v a c k :
  shape (Node p (Some l) v a c) = true -> In k l ->
  shape k = true /\ path_is_empty k = false /\ alias_free p = true.
Proof.
  intros H Hk. apply shape_inv in H. destruct H as [H1 H2].
  destruct (no_empty_kid_inv _ _ _ _ _ H1 k Hk) as [N1 N2].
  cbn [alias_last] in H2. apply andb_true_iff in H2. destruct H2 as [A1 A2].
  unfold shape. rewrite N2, (forallb_In _ _ k A2 Hk). auto.
Qed.

Lemma flatten_unfold item p k v a c :
  flatten item (Node p k v a c) =
  if path_is_empty (Node p k v a c) || contains_comment (Node p k v a c) then [Node p k v a c]
  else match k with
       | None => [Node p k v a c]
       | Some l =>
           if sole_self l then [Node p k v a c]
           else flat_map
                  (fun nested =>
                     map (fun f => Node (p ++ pre f) (kids f) v (if item then a else None) false)
                         (flatten item nested)) l
       end.
Proof. destruct k; reflexivity. Qed.

Lemma flatten_ind (item : bool) (R : tree -> tree -> Prop) :
  (forall t, R t t) ->
  (forall p l v a c k f, In k l -> R k f ->
     R (Node p (Some l) v a c) (Node (p ++ pre f) (kids f) v (if item then a else None) false)) ->
  forall t f, In f (flatten item t) -> R t f.
Proof.
  intros Hself Hsplice.
  induction t as [p v a c|p l v a c IH] using tree_ind'; intros f; cbn [flatten].
  - destruct (_ || _); intros [<-|[]]; apply Hself.
  - destruct (_ || _); [intros [<-|[]]; apply Hself|].
    destruct (sole_self l); [intros [<-|[]]; apply Hself|].
    rewrite in_flat_map. intros [k [Hk Hf]]. apply in_map_iff in Hf. destruct Hf as [f0 [<- Hf0]].
    rewrite Forall_forall in IH. apply Hsplice with k; auto.
Qed.

Lemma flatten_fields item t f :
  In f (flatten item t) ->
  vis f = vis t /\ (attrs f = attrs t \/ (item = false /\ attrs f = None)).
Proof.
  revert t f. refine (flatten_ind item _ _ _); [auto|].
  intros p l v a c k f _ _. cbn [vis attrs]. destruct item; auto.
Qed.
Lemma flatten_nonempty item t f :
  In f (flatten item t) -> path_is_empty t = false -> no_empty_kid t = true ->
  path_is_empty f = false.
Proof.
  revert t f. refine (flatten_ind item _ _ _); [auto|]. intros p l v a c k f Hk IH _ Hnk.
  destruct (no_empty_kid_inv _ _ _ _ _ Hnk k Hk) as [H1 H2]. apply app_path_nonempty, IH; assumption.
Qed.
Lemma flatten_shape item t f : In f (flatten item t) -> shape t = true -> shape f = true.
Proof.
  revert t f. refine (flatten_ind item _ _ _); [auto|]. intros p l v a c k f Hk IH Hs.
  destruct (shape_kids _ _ _ _ _ _ Hs Hk) as [S1 [_ S3]].
  destruct (shape_inv _ (IH S1)) as [F1 F2].
  unfold shape. rewrite alias_last_splice, andb_true_r by assumption. destruct f; exact F1.
Qed.
Lemma flatten_noalias item t f : In f (flatten item t) -> noalias t = true -> noalias f = true.
Proof.
  revert t f. refine (flatten_ind item _ _ _); [auto|]. intros p l v a c k f Hk IH Hs.
  cbn [noalias] in Hs. apply andb_true_iff in Hs. destruct Hs as [Hp Hl].
  apply noalias_splice; [exact Hp|]. apply IH, (forallb_In _ _ k Hl Hk).
Qed.

Lemma flatten_den item t :
  no_empty_kid t = true -> forall st, flat_map (den st) (flatten item t) = den st t.
Proof.
  induction t as [p v a c|p l v a c IH] using tree_ind'; intros Hk st; cbn [flatten].
  - destruct (_ || _); cbn [flat_map]; apply app_nil_r.
  - destruct (_ || _); [cbn [flat_map]; apply app_nil_r|].
    destruct (sole_self l); [cbn [flat_map]; apply app_nil_r|].
    rewrite den_some, flat_map_flat_map. apply flat_map_ext_in. intros k Hn.
    destruct (no_empty_kid_inv _ _ _ _ _ Hk k Hn) as [H1 H2].
    rewrite Forall_forall in IH. rewrite flat_map_map, <- (IH k Hn H2).
    apply flat_map_ext_in. intros f Hf. apply den_splice. eapply flatten_nonempty; eassumption.
Qed.

Lemma flatten_leaves item t :
  no_empty_kid t = true -> (item = true \/ attrs t = None) ->
  flat_map leaves (flatten item t) = leaves t.
Proof.
  intros Hk Ha. rewrite (flat_map_leaves_class (cls t)).
  - rewrite flatten_den by assumption. reflexivity.
  - intros f Hf. destruct (flatten_fields item t f Hf) as [Hv Hat].
    unfold cls. rewrite Hv. f_equal.
    destruct Hat as [E|[E1 E2]]; [assumption|].
    destruct Ha as [Ha|Ha]; congruence.
Qed.

Lemma nest_trailing_self_cases t :
  nest_trailing_self t = t \/
  exists q al v a c, t = Node (q ++ [Slf al]) None v a c /\
                     nest_trailing_self t = Node q (Some [from_path [GS (Slf al)]]) v a c.
Proof.
  destruct t as [p [l|] v a c]; cbn [nest_trailing_self]; auto.
  destruct (rev p) as [|[n al|al|al|al|] rq] eqn:Er; auto.
  apply rev_cons_eq in Er. subst p. right. exists (rev rq), al, v, a, c. auto.
Qed.
Lemma nest_trailing_self_den t st : den st (nest_trailing_self t) = den st t.
Proof.
  destruct (nest_trailing_self_cases t) as [->|[q [al [v [a [c [-> ->]]]]]]]; [reflexivity|].
  rewrite den_some, den_none, fold_snoc by (intros E; apply app_eq_nil in E; destruct E; discriminate).
  reflexivity.
Qed.
Lemma nest_trailing_self_fields t :
  vis (nest_trailing_self t) = vis t /\ attrs (nest_trailing_self t) = attrs t.
Proof. destruct (nest_trailing_self_cases t) as [->|[q [al [v [a [c [-> ->]]]]]]]; auto. Qed.
Lemma nest_trailing_self_idem t : nest_trailing_self (nest_trailing_self t) = nest_trailing_self t.
Proof.
  destruct (nest_trailing_self_cases t) as [E|[q [al [v [a [c [-> ->]]]]]]]; [|reflexivity].
  rewrite !E. reflexivity.
Qed.
Lemma nest_trailing_self_leaves t : leaves (nest_trailing_self t) = leaves t.
Proof.
  rewrite !leaves_states. destruct (nest_trailing_self_fields t) as [Hv Ha].
  unfold cls. rewrite Hv, Ha, nest_trailing_self_den. reflexivity.
Qed.
Lemma nest_trailing_self_shape t : shape t = true -> shape (nest_trailing_self t) = true.
Proof.
  destruct (nest_trailing_self_cases t) as [->|[q [al [v [a [c [-> ->]]]]]]]; auto.
  unfold shape. cbn [no_empty_kid alias_last forallb from_path of_path split_path].
  rewrite removelast_last. cbn [andb]. intros ->. reflexivity.
Qed.
Lemma nest_trailing_self_nonempty t :
  path_is_empty t = false -> path_is_empty (nest_trailing_self t) = false.
Proof.
  destruct (nest_trailing_self_cases t) as [->|[q [al [v [a [c [-> ->]]]]]]]; auto.
  intros _. apply path_is_empty_some.
Qed.
Lemma nest_trailing_self_noalias t : noalias t = true -> noalias (nest_trailing_self t) = true.
Proof.
  destruct (nest_trailing_self_cases t) as [->|[q [al [v [a [c [-> ->]]]]]]]; auto.
  cbn [noalias from_path of_path split_path forallb]. rewrite !andb_true_r, alias_free_app. auto.
Qed.

Lemma oname_eqb_eq a b : oname_eqb a b = true -> a = b.
Proof.
  destruct a, b; cbn [oname_eqb]; try discriminate; auto.
  intros H; apply eqb_text_spec in H; subst; reflexivity.
Qed.
Lemma oname_eqb_refl a : oname_eqb a a = true.
Proof. destruct a; cbn [oname_eqb]; auto using eqb_text_refl. Qed.
Lemma sseg_eqb_eq x y : sseg_eqb x y = true -> x = y.
Proof.
  destruct x, y; cbn [sseg_eqb]; try discriminate; auto;
    try (intros H; apply oname_eqb_eq in H; subst; reflexivity).
  rewrite andb_true_iff. intros [H1 H2]. apply eqb_text_spec in H1. apply oname_eqb_eq in H2.
  subst; reflexivity.
Qed.
Lemma sseg_eqb_refl s : sseg_eqb s s = true.
Proof.
  destruct s; cbn [sseg_eqb]; auto using oname_eqb_refl.
  rewrite oname_eqb_refl, andb_true_r. apply eqb_text_refl.
Qed.
Lemma sseg_eqb_eea s t : sseg_eqb s t = true -> sseg_eea s t = true.
Proof.
  destruct s, t; cbn [sseg_eqb sseg_eea]; try discriminate; auto.
  rewrite andb_true_iff. tauto.
Qed.
Lemma list_eqb_sseg_eq p q : list_eqb sseg_eqb p q = true -> p = q.
Proof.
  revert q; induction p as [|x r IH]; intros [|y q]; cbn [list_eqb]; try discriminate; auto.
  rewrite andb_true_iff. intros [H1 H2]. apply sseg_eqb_eq in H1. apply IH in H2. subst; auto.
Qed.
Lemma list_eqb_sseg_refl p : list_eqb sseg_eqb p p = true.
Proof. induction p as [|s p IH]; cbn [list_eqb]; [reflexivity|]. rewrite sseg_eqb_refl, IH. reflexivity. Qed.

Lemma tree_eqb_unfold p1 k1 v1 a1 c1 p2 k2 v2 a2 c2 :
  tree_eqb (Node p1 k1 v1 a1 c1) (Node p2 k2 v2 a2 c2) =
  list_eqb sseg_eqb p1 p2 &&
  match k1, k2 with
  | None, None => true
  | Some l1, Some l2 => list_eqb tree_eqb l1 l2
  | _, _ => false
  end.
Proof.
  cbn [tree_eqb]. destruct k1 as [l1|], k2 as [l2|]; auto. f_equal.
  revert l2; induction l1 as [|x r IH]; intros [|y l2]; cbn [list_eqb]; auto.
  rewrite IH. reflexivity.
Qed.
Lemma sseg_eqb_sym x y : sseg_eqb x y = sseg_eqb y x.
Proof.
  destruct (sseg_eqb x y) eqn:E, (sseg_eqb y x) eqn:E'; try reflexivity.
  - apply sseg_eqb_eq in E. subst y. rewrite sseg_eqb_refl in E'. discriminate.
  - apply sseg_eqb_eq in E'. subst y. rewrite sseg_eqb_refl in E. discriminate.
Qed.
Lemma list_eqb_sym {A} (f : A -> A -> bool) l1 :
  Forall (fun x => forall y, f x y = f y x) l1 -> forall l2, list_eqb f l1 l2 = list_eqb f l2 l1.
Proof.
  induction 1 as [|x r Hx _ IH]; intros [|y l2]; cbn [list_eqb]; try reflexivity.
  rewrite Hx, IH. reflexivity.
Qed.
Lemma tree_eqb_sym t1 : forall t2, tree_eqb t1 t2 = tree_eqb t2 t1.
Proof.
  induction t1 as [p v a c|p l v a c IH] using tree_ind'; intros [p2 k2 v2 a2 c2];
    rewrite !tree_eqb_unfold;
    rewrite (list_eqb_sym sseg_eqb p) by (apply Forall_forall; intros; apply sseg_eqb_sym).
  - destruct k2; reflexivity.
  - destruct k2 as [l2|]; [|reflexivity]. rewrite (list_eqb_sym tree_eqb l IH). reflexivity.
Qed.
Lemma tree_eqb_den t1 : forall t2, tree_eqb t1 t2 = true -> forall st, den st t1 = den st t2.
Proof.
  induction t1 as [p v a c|p l v a c IH] using tree_ind'; intros [p2 k2 v2 a2 c2];
    rewrite tree_eqb_unfold, andb_true_iff; intros [Hp Hk] st;
    apply list_eqb_sseg_eq in Hp; subst p2.
  - destruct k2; [discriminate|]. destruct p; reflexivity.
  - destruct k2 as [l2|]; [|discriminate]. rewrite !den_some.
    apply list_eqb_flat_map with (f := tree_eqb); [|exact Hk].
    eapply Forall_impl; [|exact IH]. intros x Hx y Hxy. apply Hx, Hxy.
Qed.
Lemma tree_eqb_leaves x y :
  tree_eqb x y = true -> cls x = cls y -> leaves x = leaves y.
Proof.
  intros He Hc. rewrite !leaves_states, Hc, (tree_eqb_den x y He). reflexivity.
Qed.

Lemma gseg_eqb_GS s y : gseg_eqb (GS s) y = true -> y = GS s.
Proof.
  destruct y; cbn [gseg_eqb]; [|discriminate]. intros H; apply sseg_eqb_eq in H; subst; auto.
Qed.
Lemma gseg_eqb_eea x y : gseg_eqb x y = true -> eea x y = true.
Proof. destruct x, y; cbn [gseg_eqb eea]; auto using sseg_eqb_eea. Qed.
Lemma list_eqb_gseg_GS q l : list_eqb gseg_eqb (map GS q) l = true -> l = map GS q.
Proof.
  revert l; induction q as [|s q IH]; intros [|y l]; cbn [map list_eqb]; try discriminate; auto.
  rewrite andb_true_iff. intros [H1 H2]. apply gseg_eqb_GS in H1. apply IH in H2. subst; auto.
Qed.
Lemma list_eqb_gseg_gden a b st : list_eqb gseg_eqb a b = true -> gden st a = gden st b.
Proof.
  revert b st; induction a as [|x a IH]; intros [|y b] st; cbn [list_eqb]; try discriminate; auto.
  rewrite andb_true_iff. intros [H1 H2].
  destruct x as [s|l].
  - apply gseg_eqb_GS in H1. subst y. cbn [gden]. auto.
  - destruct y as [s|l2]; [discriminate|]. cbn [gseg_eqb] in H1. cbn [gden].
    apply (list_eqb_flat_map tree_eqb); [|exact H1].
    apply Forall_forall. intros x _ z H. apply tree_eqb_den, H.
Qed.

Lemma prefix_len_false_eq a : forall b n,
  n <= prefix_len false a b -> list_eqb gseg_eqb (firstn n a) (firstn n b) = true.
Proof.
  induction a as [|x a IH]; intros [|y b] [|n]; cbn [prefix_len firstn list_eqb]; auto; try lia.
  cbn [andb orb]. destruct (gseg_eqb x y); [|lia]. intros H. apply IH. lia.
Qed.
Lemma prefix_len_le first a b :
  prefix_len first a b <= length a /\ prefix_len first a b <= length b.
Proof.
  revert first b; induction a as [|x a IH]; intros first [|y b]; cbn [prefix_len length]; try lia.
  destruct (_ || _); [|lia]. specialize (IH false b). lia.
Qed.
Lemma prefix_len_common q : forall first a b,
  prefix_len first (map GS q ++ a) (map GS q ++ b) = length q + prefix_len (first && is_nil q) a b.
Proof.
  induction q as [|s q IH]; intros first a b; cbn [map app length is_nil].
  - rewrite andb_true_r. reflexivity.
  - cbn [prefix_len gseg_eqb]. rewrite sseg_eqb_refl, orb_true_r, IH, andb_false_r. reflexivity.
Qed.
Lemma prefix_len_head a b :
  prefix_len true a b <> 0 -> eea (nth 0 a (GS Glob)) (nth 0 b (GS Glob)) = true.
Proof.
  destruct a as [|x a], b as [|y b]; cbn [prefix_len andb nth]; try congruence.
  destruct (eea x y) eqn:He; [reflexivity|]. cbn [orb].
  destruct (gseg_eqb x y) eqn:E; [|congruence]. apply gseg_eqb_eea in E. congruence.
Qed.
(* the excepted case is the one that root_clash lets through: the first segments agree up to
   their alias only, a is that one segment and b is longer *)
Lemma prefix_agree a b n :
  root_clash a b = false ->
  ~ (prefix_len true a b = 1 /\ length a = 1 /\ length b <> 1) ->
  n <= prefix_len true a b -> list_eqb gseg_eqb (firstn n a) (firstn n b) = true.
Proof.
  destruct a as [|x ra], b as [|y rb], n as [|n];
    cbn [prefix_len firstn list_eqb root_clash andb]; auto; try lia.
  intros Hrc Hc. destruct (gseg_eqb x y) eqn:G.
  - rewrite orb_true_r. intros H. apply prefix_len_false_eq. lia.
  - (* equal up to the alias only: without root clash this is the excepted case *)
    rewrite orb_false_r in *. destruct (eea x y); [|lia]. exfalso.
    cbn [andb negb] in Hrc. destruct ra; [|discriminate]. destruct rb; [discriminate|].
    cbn [prefix_len length] in Hc. lia.
Qed.

Lemma good_some q L v a c :
  good (Node q (Some L) v a c) = alias_free q && forallb good L.
Proof.
  unfold good at 1. unfold shape. rewrite path_is_empty_some. cbn [negb andb no_empty_kid alias_last].
  induction L as [|x L IH]; cbn [forallb]; [destruct (alias_free q); reflexivity|].
  unfold good at 1. unfold shape.
  (* the same conjuncts on both sides, in another order *)
  destruct (path_is_empty x), (no_empty_kid x), (alias_last x); cbn [negb andb];
    rewrite ?andb_false_r; auto.
Qed.
Lemma good_none q v a c :
  good (Node q None v a c) = negb (is_nil q) && alias_free (removelast q).
Proof.
  unfold good, shape. cbn [no_empty_kid alias_last]. destruct q; reflexivity.
Qed.
Lemma good_nonempty t : good t = true -> path_is_empty t = false.
Proof.
  unfold good. intros H. apply andb_true_iff in H. destruct H as [H _]. apply negb_true_iff in H; auto.
Qed.
Lemma good_slf al : good (from_path [GS (Slf al)]) = true.
Proof. reflexivity. Qed.
Lemma good_of_path_list q L v a c :
  good (of_path (map GS q ++ [GL L]) v a c) = alias_free q && forallb good L.
Proof. rewrite of_path_list. apply good_some. Qed.

Lemma path_len_length t : length (path t) = path_len t.
Proof.
  destruct t as [p [l|] v a c]; unfold path, path_len; cbn [pre kids klist];
    rewrite app_length, map_length; cbn [length]; lia.
Qed.
Lemma skipn_path n p k :
  n <= length p -> skipn n (map GS p ++ klist k) = map GS (skipn n p) ++ klist k.
Proof.
  intros H. rewrite skipn_app, map_length.
  replace (n - length p) with 0 by lia. cbn [skipn].
  rewrite skipn_map. reflexivity.
Qed.
Lemma firstn_path n p k :
  n <= length p -> firstn n (map GS p ++ klist k) = map GS (firstn n p).
Proof.
  intros H. rewrite firstn_app, map_length.
  replace (n - length p) with 0 by lia. cbn [firstn]. rewrite app_nil_r.
  rewrite firstn_map. reflexivity.
Qed.

Lemma good_cut n t :
  good t = true -> n < length (path t) ->
  exists q, firstn n (path t) = map GS q /\ alias_free q = true /\
            good (from_path (skipn n (path t))) = true.
Proof.
  destruct t as [p k v a c]. unfold path. cbn [pre kids]. intros Hg Hl.
  rewrite app_length, map_length in Hl.
  assert (Hn : n <= length p) by (destruct k; cbn [klist length] in Hl; lia).
  exists (firstn n p). rewrite firstn_path, skipn_path, from_path_path by assumption.
  split; [reflexivity|]. destruct k as [L|].
  - rewrite good_some in *. apply andb_true_iff in Hg. destruct Hg as [H1 H2].
    rewrite H2, andb_true_r. split; [apply forallb_firstn|apply forallb_skipn]; exact H1.
  - cbn [klist length] in Hl. rewrite good_none in *.
    rewrite (removelast_split n), alias_free_app in Hg by lia.
    apply andb_true_iff in Hg. destruct Hg as [_ Hg]. apply andb_true_iff in Hg.
    destruct Hg as [H1 H2]. rewrite H1, H2, andb_true_r. split; [reflexivity|].
    destruct (skipn n p) eqn:E; [apply skipn_nonempty in E; [contradiction|lia]|reflexivity].
Qed.
Lemma gden_cut n p q st :
  firstn n p = map GS q -> gden st p = gden (fold_left step q st) (skipn n p).
Proof. intros H. rewrite <- (firstn_skipn n p) at 1. rewrite H. apply gden_app_GS. Qed.

Lemma path_head_GS t x r : path t = x :: r -> r <> [] -> exists s, x = GS s.
Proof.
  destruct t as [[|s p] k v a c]; unfold path; cbn [pre kids map app]; intros E Hr.
  - destruct k; inversion E; subst; congruence.
  - inversion E; eauto.
Qed.

Lemma step_self_alias st s s' :
  sseg_eea s s' = true -> salias s' = None ->
  step (step st s') (Slf (salias s)) = step st s.
Proof.
  destruct s as [n al|al|al|al|], s' as [n' al'|al'|al'|al'|]; cbn [sseg_eea salias];
    try discriminate; intros He Ha; subst.
  - apply eqb_text_spec in He. subst n'. destruct al; reflexivity.
  - destruct st as [|t st'], al as [b|]; try reflexivity.
  - destruct al; reflexivity.
  - destruct al; reflexivity.
  - reflexivity.
Qed.

(* the list that merge_rest makes of the rest of the longer path *)
Definition rest_list (rest : list gseg) : list tree :=
  match rest with [GL rl] => rl | _ => [from_path rest] end.
Lemma rest_den rest st : flat_map (den st) (rest_list rest) = den st (from_path rest).
Proof.
  destruct rest as [|[s|l] [|y r]]; cbn [rest_list flat_map]; rewrite ?app_nil_r; reflexivity.
Qed.
Lemma rest_good rest : forallb good (rest_list rest) = good (from_path rest).
Proof.
  destruct rest as [|[s|l] [|y r]]; cbn [rest_list forallb]; rewrite ?andb_true_r; try reflexivity.
  symmetry. apply (good_of_path_list [] l).
Qed.
Lemma rest_noalias rest : forallb noalias (rest_list rest) = noalias (from_path rest).
Proof.
  destruct rest as [|[s|l] [|y r]]; cbn [rest_list forallb]; rewrite ?andb_true_r; reflexivity.
Qed.

Lemma first_min_in ks : forall best r,
  first_min best ks = Some r -> best = Some r \/ In (Some r) ks.
Proof.
  induction ks as [|[k|] ks IH]; intros best r H; cbn [first_min] in H; auto.
  - assert (Hs : forall b, first_min b ks = Some r -> b = Some k \/ b = best ->
                           best = Some r \/ In (Some r) (Some k :: ks)).
    { intros b Hb Eb. apply IH in Hb. cbn [In]. destruct Hb as [Hb|Hb]; [|auto].
      destruct Eb; subst b; auto. }
    destruct best as [bk|]; [destruct (Nat.ltb k bk)|]; apply Hs in H; auto.
  - apply IH in H. cbn [In]. tauto.
Qed.

Lemma last_max_spec ks : forall i best j k,
  last_max i best ks = Some (j, k) ->
  best = Some (j, k) \/ (i <= j /\ nth_error ks (j - i) = Some (Some k)).
Proof.
  induction ks as [|o ks IH]; intros i best j k H; cbn [last_max] in H; auto.
  assert (Hs : forall b, last_max (S i) b ks = Some (j, k) -> b = Some (j, k) \/
                         i <= j /\ nth_error (o :: ks) (j - i) = Some (Some k)).
  { intros b Hb. apply IH in Hb. destruct Hb as [Hb|[H1 H2]]; [left; exact Hb|].
    right. split; [lia|]. replace (j - i) with (S (j - S i)) by lia. exact H2. }
  destruct o as [k0|]; [|apply Hs, H].
  assert (Hnew : last_max (S i) (Some (i, k0)) ks = Some (j, k) ->
                 best = Some (j, k) \/ i <= j /\ nth_error (Some k0 :: ks) (j - i) = Some (Some k)).
  { intros H'. apply Hs in H'. destruct H' as [H'|H']; [|right; exact H'].
    inversion H'; subst. right. split; [lia|]. rewrite Nat.sub_diag. reflexivity. }
  destruct best as [[bi bk]|]; [destruct (Nat.ltb k0 bk)|]; auto.
Qed.

Lemma apply_at_split (f : tree -> tree) (g : tree -> bool) l : forall i x,
  nth_error l i = Some x ->
  exists l1 l2, l = l1 ++ x :: l2 /\ apply_at f i l = l1 ++ f x :: l2 /\ check_at g i l = g x.
Proof.
  induction l as [|y l IH]; intros [|i] x H; cbn [nth_error] in H; try discriminate.
  - inversion H; subst. exists [], l. repeat split.
  - destruct (IH i x H) as [l1 [l2 [E1 [E2 E3]]]].
    exists (y :: l1), l2. cbn [apply_at check_at app].
    fold (apply_at f). fold (check_at g). rewrite E2, E3, <- E1. repeat split.
Qed.
Lemma check_at_nth (g : tree -> bool) l i x : nth_error l i = Some x -> check_at g i l = g x.
Proof. intros H. destruct (apply_at_split (fun t => t) g l i x H) as [_ [_ [_ [_ E]]]]. exact E. Qed.
Lemma check_at_false (f : tree -> bool) l : forall i,
  (forall x, In x l -> f x = false) -> check_at f i l = false.
Proof.
  induction l as [|y l IH]; intros i H; [reflexivity|].
  destruct i as [|i]; cbn [check_at].
  - apply H. left. reflexivity.
  - fold (check_at f). apply IH. intros x Hx. apply H. right. assumption.
Qed.
Lemma forallb_apply_at (P : tree -> bool) f l : forall i,
  forallb P l = true -> (forall x, nth_error l i = Some x -> P (f x) = true) ->
  forallb P (apply_at f i l) = true.
Proof.
  induction l as [|y l IH]; intros i H Hf; [reflexivity|].
  cbn [forallb] in H. apply andb_true_iff in H. destruct H as [H1 H2].
  destruct i as [|i]; cbn [apply_at forallb].
  - rewrite (Hf y eq_refl), H2. reflexivity.
  - fold (apply_at f). rewrite H1. apply IH; [exact H2|exact Hf].
Qed.
Lemma flat_map_apply_at {B} (f : tree -> list B) g l i x extra :
  nth_error l i = Some x -> SameSet (f (g x)) (f x ++ extra) ->
  SameSet (flat_map f (apply_at g i l)) (flat_map f l ++ extra).
Proof.
  intros En H. destruct (apply_at_split g (fun _ => true) l i x En) as [l1 [l2 [-> [-> _]]]].
  intros z. rewrite !flat_map_app. cbn [flat_map]. rewrite !in_app_iff, (H z), in_app_iff. tauto.
Qed.

Lemma find_index_spec (f : tree -> bool) l : forall i j,
  find_index f i l = Some j ->
  i <= j /\ exists x, nth_error l (j - i) = Some x /\ f x = true.
Proof.
  induction l as [|y l IH]; intros i j H; cbn [find_index] in H; [discriminate|].
  destruct (f y) eqn:E.
  - inversion H; subst. split; [lia|]. exists y. rewrite Nat.sub_diag. auto.
  - apply IH in H. destruct H as [H1 [x [H2 H3]]]. split; [lia|].
    exists x. replace (j - i) with (S (j - S i)) by lia. auto.
Qed.
Lemma find_index_nth f l j :
  find_index f 0 l = Some j -> exists x, nth_error l j = Some x /\ f x = true.
Proof. intros H. apply find_index_spec in H. rewrite Nat.sub_0_r in H. apply H. Qed.

Lemma add_flattened_new cmp m res f :
  (forall r, In r res -> share_prefix r f m = false) ->
  add_flattened cmp m res f =
  res ++ [match m with SPModule => nest_trailing_self f | _ => f end].
Proof.
  intros H. unfold add_flattened.
  replace (find_index _ 0 res) with (@None nat); [reflexivity|].
  generalize 0. induction res as [|x l IH]; intros i; cbn [find_index]; [reflexivity|].
  rewrite (H x (or_introl eq_refl)). apply IH. intros r Hr. apply H. right; exact Hr.
Qed.

Lemma add_flattened_hit cmp m l1 r l2 f :
  (forall r', In r' l1 -> share_prefix r' f m = false) -> share_prefix r f m = true ->
  add_flattened cmp m (l1 ++ r :: l2) f = l1 ++ merge cmp m r f :: l2.
Proof.
  intros H1 H2. unfold add_flattened.
  replace (find_index _ 0 (l1 ++ r :: l2)) with (Some (0 + length l1)).
  - cbn [Nat.add]. clear. induction l1 as [|y l1 IH]; cbn [app length apply_at]; [reflexivity|].
    fold (apply_at (fun t => merge cmp m t f)). rewrite IH. reflexivity.
  - generalize 0. induction l1 as [|y l1 IH]; intros i; cbn [app find_index length].
    + rewrite H2. f_equal. lia.
    + rewrite (H1 y (or_introl eq_refl)), <- IH; [f_equal; lia|].
      intros r' Hr'. apply H1. right; exact Hr'.
Qed.

Lemma share_prefix_inv t u m :
  share_prefix t u m = true ->
  path_is_empty t = false /\ path_is_empty u = false /\ attrs t = None /\
  contains_comment t = false /\ vnorm (vis t) = vnorm (vis u) /\
  match m with
  | SPCrate => exists x y, path_head t = Some x /\ path_head u = Some y /\ gseg_eqb x y = true
  | _ => True
  end.
Proof.
  unfold share_prefix, same_visibility.
  destruct (path_is_empty t); [discriminate|]. destruct (path_is_empty u); [discriminate|].
  cbn [orb]. destruct (attrs t); [discriminate|]. cbn [is_some orb].
  destruct (contains_comment t); [discriminate|]. cbn [orb].
  destruct (N.eqb_spec (vnorm (vis t)) (vnorm (vis u))); [|discriminate]. cbn [negb].
  intros H. repeat split; auto. destruct m; auto.
  destruct (path_head t) as [x|]; [|discriminate]. destruct (path_head u) as [y|]; [|discriminate].
  eauto.
Qed.
Lemma passthrough_no_share t f m : passthrough t = true -> share_prefix t f m = false.
Proof.
  intros Hp. destruct (share_prefix t f m) eqn:E; [|reflexivity].
  destruct (share_prefix_inv _ _ _ E) as [_ [_ [Ha [Hc _]]]].
  unfold passthrough in Hp. rewrite Ha, Hc in Hp. discriminate.
Qed.

Lemma path_head_len1 t x : path_len t = 1 -> path_head t = Some x -> path t = [x].
Proof.
  destruct t as [[|s [|s2 p]] [l|] v a c]; unfold path_len, path_head, path;
    cbn [pre kids length klist map app]; intros H1 H2; try lia; inversion H2; reflexivity.
Qed.
Lemma path_head_cons t x : path_head t = Some x -> exists r, path t = x :: r.
Proof.
  destruct t as [[|s p] [l|] v a c]; unfold path_head, path; cbn [pre kids map app klist];
    intros H; inversion H; eauto.
Qed.

(* sims and lens of inner_choice have the form of [keys] *)
Section Keys.
Variables (sp : tree -> bool) (key : tree -> nat) (trees : list tree).
Let keys := map (fun t => if sp t then Some (key t) else None) trees.
Lemma last_max_keys j k :
  last_max 0 None keys = Some (j, k) -> exists x, nth_error trees j = Some x /\ sp x = true.
Proof.
  intros H. apply last_max_spec in H. destruct H as [H|[_ H]]; [discriminate|].
  rewrite Nat.sub_0_r in H. apply nth_error_map' in H. destruct H as [x [H1 H2]].
  exists x. split; [assumption|]. destruct (sp x); [reflexivity|discriminate].
Qed.
Lemma first_min_keys r :
  first_min None keys = Some r -> exists x, In x trees /\ sp x = true /\ key x = r.
Proof.
  intros H. apply first_min_in in H. destruct H as [H|H]; [discriminate|].
  apply in_map_iff in H. destruct H as [x [E Hx]]. exists x.
  destruct (sp x); [|discriminate]. inversion E. auto.
Qed.
End Keys.

Lemma inner_choice_spec m trees u :
  match inner_choice m trees u with
  | CKeep => m = SPCrate /\ path_len u = 1 /\
             exists x, In x trees /\ share_prefix x u m = true /\ path_len x = 1
  | CMerge i => exists x, nth_error trees i = Some x /\ share_prefix x u m = true
  | CPush => True
  end.
Proof.
  unfold inner_choice.
  destruct (Nat.eqb (path_len u) 1 && match m with SPCrate => true | _ => false end) eqn:Ec.
  - apply andb_true_iff in Ec. destruct Ec as [Hu Hm]. apply Nat.eqb_eq in Hu.
    destruct m; try discriminate.
    destruct (first_min None _) as [[|[|n]]|] eqn:Ef; auto.
    apply first_min_keys in Ef. auto.
  - destruct m.
    + (* Crate: CMerge needs a path length of at least 2 *)
      destruct (last_max 0 None _) as [[i [|[|k]]]|] eqn:E; auto. apply last_max_keys in E. exact E.
    + (* Module: the same *)
      destruct (last_max 0 None _) as [[i [|[|k]]]|] eqn:E; auto. apply last_max_keys in E. exact E.
    + (* One: a similarity of at least 1 *)
      destruct (last_max 0 None _) as [[i [|k]]|] eqn:E; auto. apply last_max_keys in E. exact E.
Qed.

Lemma choice_keep m trees u :
  inner_choice m trees u = CKeep ->
  exists k, In k trees /\ forall st, den st u = den st k.
Proof.
  intros Ec. pose proof (inner_choice_spec m trees u) as H. rewrite Ec in H.
  destruct H as [-> [Hu [k [Hk [Hs Hlk]]]]]. exists k. split; [assumption|]. intros st.
  destruct (share_prefix_inv _ _ _ Hs) as [N1 [N2 [_ [_ [_ [x [y [Hx [Hy He]]]]]]]]].
  rewrite !den_gden, (path_head_len1 k x Hlk Hx), (path_head_len1 u y Hu Hy) by assumption.
  symmetry. apply list_eqb_gseg_gden. cbn [list_eqb]. rewrite He. reflexivity.
Qed.
Lemma choice_merge_share m trees u i :
  inner_choice m trees u = CMerge i ->
  exists x, nth_error trees i = Some x /\ share_prefix x u m = true.
Proof. intros Ec. pose proof (inner_choice_spec m trees u) as H. rewrite Ec in H. exact H. Qed.

Section Merge.
Variable cmp : tree -> tree -> comparison.

(* np is the result of merge_rest when one path is the one segment x and the other, the path
   of t, is longer and starts with a segment that equals x except for the alias *)
Lemma self_list_ok t x v a c :
  good t = true -> 1 < length (path t) -> eea x (nth 0 (path t) (GS Glob)) = true ->
  let np := [nth 0 (path t) (GS Glob);
             GL (from_path [GS (Slf (galias x))] :: rest_list (skipn 1 (path t)))] in
  good (of_path np v a c) = true /\
  forall st, gden st np = gden st [x] ++ gden st (path t).
Proof.
  intros Hg Hl He. destruct (good_cut 1 t Hg Hl) as [q [Eq [Hq Hgr]]].
  destruct (path t) as [|y [|y2 rest]]; cbn [length] in Hl; try lia.
  cbn [firstn skipn nth] in *. destruct q as [|sh [|s2 q]]; try discriminate.
  inversion Eq; subst y. destruct x as [sc|l]; [|discriminate]. cbn [eea galias] in *. split.
  - apply (eq_trans (good_of_path_list [sh] _ v a c)). cbn [forallb].
    rewrite Hq, good_slf, rest_good, Hgr. reflexivity.
  - intros st. cbn [gden flat_map app]. rewrite rest_den. unfold from_path at 2.
    rewrite den_of_path by discriminate.
    cbn [alias_free forallb] in Hq. rewrite <- (step_self_alias st sc sh He); [reflexivity|].
    destruct (salias sh); [discriminate|reflexivity].
Qed.

(* np is fin n of merge_rest_with: both paths go on after n common segments *)
Lemma fork_ok self other n v a c :
  good self = true -> good other = true ->
  n < length (path self) -> n < length (path other) ->
  list_eqb gseg_eqb (firstn n (path self)) (firstn n (path other)) = true ->
  let np := firstn n (path other) ++
            [GL (sort_by cmp [from_path (skipn n (path self)); from_path (skipn n (path other))])] in
  good (of_path np v a c) = true /\
  forall st, SameSet (gden st np) (gden st (path self) ++ gden st (path other)).
Proof.
  intros Hs Ho Hla Hlb He np.
  destruct (good_cut n self Hs Hla) as [q [Eq [Hq G1]]].
  destruct (good_cut n other Ho Hlb) as [q' [_ [_ G2]]].
  rewrite Eq in He. apply list_eqb_gseg_GS in He. unfold np. rewrite He. split.
  - rewrite good_of_path_list, Hq, forallb_sort. cbn [forallb]. rewrite G1, G2. reflexivity.
  - intros st. rewrite gden_app_GS. cbn [gden]. rewrite flat_map_sort. cbn [flat_map].
    unfold from_path. rewrite app_nil_r, !den_of_path by (apply skipn_nonempty; assumption).
    rewrite (gden_cut n _ q st Eq), (gden_cut n _ q st He). reflexivity.
Qed.

Lemma merge_rest_ok inner pa ka v a c other :
  let A := map GS pa ++ klist ka in
  let b := path other in
  let len := prefix_len true A b in
  good (Node pa ka v a c) = true -> good other = true ->
  root_clash A b = false ->
  (forall l, ka = Some l -> len = length pa -> len < length b ->
     let u := from_path (skipn len b) in
     forallb good (inner l u) = true /\
     forall st, SameSet (flat_map (den st) (inner l u)) (flat_map (den st) l ++ den st u)) ->
  match merge_rest_with cmp inner pa ka b len with
  | Some np => good (of_path np v a c) = true /\
               forall st, SameSet (gden st np) (gden st A ++ gden st b)
  | None => forall st, gden st b = gden st A
  end.
Proof.
  intros A b len Hs Ho Hrc Hinner.
  pose proof (prefix_len_le true A b) as [HlA Hlb]. fold len in HlA, Hlb.
  pose proof (fun n => prefix_agree A b n Hrc) as Hag. fold len in Hag.
  assert (EA : path (Node pa ka v a c) = A) by reflexivity.
  assert (HAne : 0 < length A) by (apply (path_nonempty (Node pa ka v a c)), good_nonempty, Hs).
  assert (Hbne : 0 < length b) by (apply path_nonempty, good_nonempty, Ho).
  assert (Hfin : forall n, n < length A -> n < length b -> n <= len ->
                 ~ (len = 1 /\ length A = 1 /\ length b <> 1) -> _)
    by (intros n H1 H2 H3 H4; exact (fork_ok (Node pa ka v a c) other n v a c Hs Ho H1 H2 (Hag n H4 H3))).
  unfold merge_rest_with. fold A.
  destruct (Nat.eqb_spec (length A) len) as [ElA|NlA];
    destruct (Nat.eqb_spec (length b) len) as [Elb|Nlb]; cbn [andb negb].
  - (* identical paths *)
    intros st. symmetry. apply list_eqb_gseg_gden.
    specialize (Hag len ltac:(lia) (le_n _)).
    rewrite <- ElA, firstn_all in Hag. rewrite ElA, <- Elb, firstn_all in Hag. exact Hag.
  - (* a exhausted, b longer *)
    destruct (Nat.eqb_spec len 1) as [E1|N1].
    2:{ apply (Hfin (len - 1)); lia. }
    destruct (self_list_ok other (nth 0 A (GS Glob)) v a c Ho ltac:(fold b; lia)
                (prefix_len_head A b ltac:(fold len; lia))) as [G D].
    split; [exact G|]. intros st. rewrite D.
    destruct A as [|x [|x2 ra]]; cbn [length] in ElA; try lia. reflexivity.
  - (* b exhausted, a longer *)
    destruct (Nat.eqb_spec len 1) as [E1|N1].
    2:{ apply (Hfin (len - 1)); lia. }
    rewrite E1 in *. clear Hfin. specialize (Hag 1 ltac:(lia) (le_n _)).
    destruct b as [|y [|y2 rb]] eqn:Eb; cbn [length] in Elb; try lia.
    destruct A as [|x ra] eqn:EA'; [cbn [length] in HAne; lia|].
    assert (Hra : ra <> []) by (destruct ra; cbn [length] in *; [lia|discriminate]).
    destruct (path_head_GS _ x ra EA Hra) as [s ->].
    cbn [firstn list_eqb] in Hag. rewrite andb_true_r in Hag. apply gseg_eqb_GS in Hag. subst y.
    cbn [nth skipn galias].
    pose proof (self_list_ok _ (GS s) v a c Hs) as H. rewrite EA in H.
    destruct (H ltac:(cbn [length] in *; lia) (sseg_eqb_eea _ _ (sseg_eqb_refl s))) as [G D].
    split; [exact G|]. intros st. rewrite D. apply (SameSet_app_comm [step st s]).
  - (* both longer *)
    destruct ka as [l|]; [destruct (Nat.eqb_spec len (length pa)) as [Ep|Np]|];
      try (apply (Hfin len); lia).
    destruct (Hinner l eq_refl Ep ltac:(lia)) as [Hg Hd].
    specialize (Hag len ltac:(lia) (le_n _)). unfold A in Hag at 1.
    rewrite Ep, (firstn_path (length pa) pa (Some l)), firstn_all in Hag by lia.
    apply list_eqb_gseg_GS in Hag. rewrite <- Ep in Hag. rewrite Hag. split.
    + rewrite good_of_path_list, Hg, andb_true_r.
      rewrite good_some in Hs. apply andb_true_iff in Hs. tauto.
    + intros st. rewrite gden_app_GS. cbn [gden]. rewrite (Hd _).
      unfold A. rewrite gden_app_GS, (gden_cut len b pa st Hag). cbn [klist gden].
      unfold from_path. rewrite den_of_path by (apply skipn_nonempty; lia). reflexivity.
Qed.

Lemma inner_ok m (mrg : tree -> tree) trees u :
  forallb good trees = true -> good u = true ->
  (forall i x, inner_choice m trees u = CMerge i -> nth_error trees i = Some x ->
      good (mrg x) = true /\ forall st, SameSet (den st (mrg x)) (den st x ++ den st u)) ->
  forallb good (inner_with cmp mrg m trees u) = true /\
  forall st, SameSet (flat_map (den st) (inner_with cmp mrg m trees u))
                     (flat_map (den st) trees ++ den st u).
Proof.
  intros Hg Hu Hm. unfold inner_with.
  destruct (inner_choice m trees u) as [|i|] eqn:Ec.
  - split; [assumption|]. intros st. symmetry. apply SameSet_dup.
    destruct (choice_keep _ _ _ Ec) as [k [Hk Hd]]. intros z Hz.
    apply in_flat_map. exists k. split; [assumption|]. rewrite <- Hd. assumption.
  - destruct (choice_merge_share _ _ _ _ Ec) as [x [En _]]. split.
    + apply forallb_apply_at; [exact Hg|]. intros y Ey. apply (Hm i y eq_refl Ey).
    + intros st. apply (flat_map_apply_at _ _ _ _ x _ En), (Hm i x eq_refl En).
  - split.
    + rewrite forallb_sort, forallb_app. cbn [forallb]. rewrite Hg, Hu. reflexivity.
    + intros st. rewrite flat_map_sort, flat_map_app. cbn [flat_map]. rewrite app_nil_r. reflexivity.
Qed.

Theorem merge_den m : forall self other,
  good self = true -> good other = true -> merge_clash m self other = false ->
  good (merge cmp m self other) = true /\
  forall st, SameSet (den st (merge cmp m self other)) (den st self ++ den st other).
Proof.
  induction self as [pa ka v a c IH] using tree_ind_kids; intros other Hs Ho Hc.
  cbn [merge]. cbn [merge_clash] in Hc. apply orb_false_iff in Hc. destruct Hc as [Hrc Hc].
  set (A := map GS pa ++ klist ka) in *. set (b := path other) in *.
  set (len := prefix_len true A b) in *.
  assert (Es : forall st, den st (Node pa ka v a c) = gden st A)
    by (intros st; apply den_gden, good_nonempty, Hs).
  assert (Eo : forall st, den st other = gden st b) by (intros st; apply den_gden, good_nonempty, Ho).
  lapply (merge_rest_ok (fun l u => inner_with cmp (fun t => merge cmp m t u) m l u)
            pa ka v a c other Hs Ho Hrc); fold A b len.
  - intros H. destruct (merge_rest_with _ _ _ _ _ _) as [np|].
    + destruct H as [Hg Hd]. split; [exact Hg|]. intros st.
      (* np <> []: good (of_path [] ..) computes to false *)
      rewrite den_of_path, Es, Eo by (intros ->; discriminate Hg). apply Hd.
    + split; [exact Hs|]. intros st. rewrite Eo, H, <- Es. symmetry. apply SameSet_dup. auto.
  - intros l -> Hlen Hlb u.
    assert (HlA : length A = length pa + 1) by (unfold A; rewrite app_length, map_length; reflexivity).
    destruct (good_cut len other Ho Hlb) as [_ [_ [_ Hgu]]]. fold b u in Hgu.
    rewrite good_some in Hs. apply andb_true_iff in Hs. destruct Hs as [_ Hs].
    apply inner_ok; auto. intros i x Ech En.
    apply (IH l x eq_refl (nth_error_In _ _ En)); [eapply forallb_In, nth_error_In, En; exact Hs|exact Hgu|].
    destruct (Nat.eqb_spec (length A) len); [lia|]. destruct (Nat.eqb_spec (length b) len); [lia|].
    destruct (Nat.eqb_spec len (length pa)); [|lia]. cbn [negb andb] in Hc. fold u in Hc.
    rewrite Ech, (check_at_nth _ _ _ _ En) in Hc. exact Hc.
Qed.

(* merge when the two paths part after the common prefix q and neither ends there
   (imports.rs:760-833, the two branches of merge_rest that build or extend a list) *)
Lemma merge_diverge m pa ka v a c other q ta tb :
  path (Node pa ka v a c) = map GS q ++ ta -> path other = map GS q ++ tb ->
  ta <> [] -> tb <> [] -> prefix_len (is_nil q) ta tb = 0 ->
  merge cmp m (Node pa ka v a c) other =
  Node q (Some (match ka with
                | Some l =>
                    if Nat.eqb (length q) (length pa)
                    then merge_use_trees_inner cmp m l (from_path tb)
                    else sort_by cmp [from_path ta; from_path tb]
                | None => sort_by cmp [from_path ta; from_path tb]
                end)) v a c.
Proof.
  unfold path at 1. cbn [pre kids]. intros EA EB Hta Htb Hp. cbn [merge]. unfold merge_rest_with.
  rewrite EA, EB, prefix_len_common. cbn [andb]. rewrite Hp, Nat.add_0_r.
  assert (Hlen : forall t, t <> [] -> Nat.eqb (length (map GS q ++ t)) (length q) = false).
  { intros t Ht. apply Nat.eqb_neq. rewrite app_length, map_length.
    destruct t; [contradiction|cbn [length]; lia]. }
  rewrite (Hlen ta Hta), (Hlen tb Htb). cbn [andb negb].
  rewrite <- (map_length GS q), !firstn_length_app, !skipn_length_app, map_length.
  destruct ka as [l|]; [destruct (Nat.eqb (length q) (length pa))|]; apply of_path_list.
Qed.
End Merge.

Section Regroup.
Variable cmp : tree -> tree -> comparison.

Lemma regroup_events m ts :
  regroup cmp m ts = fold_left (add_ev cmp m) (flat_map (events) ts) [].
Proof.
  unfold regroup. rewrite fold_left_flat_map.
  generalize (@nil tree). induction ts as [|t ts IH]; intros res; cbn [fold_left]; auto.
  rewrite IH. f_equal. unfold add_tree, events.
  destruct (contains_comment t || is_some (attrs t)); [reflexivity|].
  rewrite fold_left_map'. reflexivity.
Qed.

Lemma merge_fields m self other :
  vis (merge cmp m self other) = vis self /\ attrs (merge cmp m self other) = attrs self.
Proof.
  destruct self as [pa ka v a c]. cbn [merge].
  destruct (merge_rest_with _ _ _ _ _ _); [apply of_path_fields|auto].
Qed.

Lemma merge_leaves m r f :
  good r = true -> good f = true -> merge_clash m r f = false ->
  cls r = cls f ->
  SameSet (leaves (merge cmp m r f)) (leaves r ++ leaves f).
Proof.
  intros Hr Hf Hc Hcls.
  destruct (merge_den cmp m r f Hr Hf Hc) as [_ Hd].
  destruct (merge_fields m r f) as [Hv Ha].
  rewrite !leaves_states. unfold cls at 1. rewrite Hv, Ha. fold (cls r). rewrite <- Hcls.
  rewrite <- states_leaves_app. apply states_leaves_valid, SameSet_filter, Hd.
Qed.

Definition ev_tree (e : ev) : tree := match e with EPass t => t | EFlat f => f end.
Definition ev_ok (e : ev) : Prop :=
  match e with
  | EPass t => shape t = true
  | EFlat f => shape f = true /\ attrs f = None
  end.

Lemma add_ev_ok m res e :
  forallb shape res = true -> ev_ok e -> ev_clash m res e = false ->
  forallb shape (add_ev cmp m res e) = true /\
  SameSet (Leaves (add_ev cmp m res e)) (Leaves res ++ leaves (ev_tree e)).
Proof.
  intros Hres He Hc.
  assert (Hpush : forall t, shape t = true ->
            forallb shape (res ++ [t]) = true /\
            SameSet (Leaves (res ++ [t])) (Leaves res ++ leaves t)).
  { intros t Ht. rewrite forallb_app, Leaves_app. cbn [forallb Leaves flat_map].
    rewrite Hres, Ht, app_nil_r. split; reflexivity. }
  destruct e as [t|f]; cbn [add_ev ev_tree ev_ok] in *; [apply Hpush, He|].
  destruct He as [Hsf Haf]. unfold add_flattened. cbn [ev_clash] in Hc.
  destruct (find_index _ 0 res) as [i|] eqn:Ef.
  - apply find_index_nth in Ef. destruct Ef as [r [En Hsh]].
    rewrite (check_at_nth _ _ _ _ En) in Hc.
    destruct (share_prefix_inv _ _ _ Hsh) as [N1 [N2 [C2 [_ [C1 _]]]]].
    pose proof (forallb_In _ _ r Hres (nth_error_In _ _ En)) as Hsr.
    assert (Hgr : good r = true) by (unfold good; rewrite N1, Hsr; reflexivity).
    assert (Hgf : good f = true) by (unfold good; rewrite N2, Hsf; reflexivity).
    assert (Hcls : cls r = cls f) by (unfold cls; rewrite C1, C2, Haf; reflexivity).
    split; [|apply (flat_map_apply_at leaves _ _ _ r _ En), merge_leaves; assumption].
    apply forallb_apply_at; [exact Hres|]. intros y Ey. rewrite En in Ey. inversion Ey; subst y.
    destruct (merge_den cmp m r f Hgr Hgf Hc) as [Hg _].
    unfold good in Hg. apply andb_true_iff in Hg. tauto.
  - destruct m; try (apply Hpush, Hsf).
    rewrite <- (nest_trailing_self_leaves f). apply Hpush, nest_trailing_self_shape, Hsf.
Qed.

Lemma run_ok m es : forall res,
  forallb shape res = true -> Forall ev_ok es -> run_clash cmp m res es = false ->
  SameSet (Leaves (fold_left (add_ev cmp m) es res))
          (Leaves res ++ flat_map (fun e => leaves (ev_tree e)) es).
Proof.
  induction es as [|e es IH]; intros res Hres Hes Hc; cbn [fold_left flat_map].
  - rewrite app_nil_r. reflexivity.
  - cbn [run_clash] in Hc. apply orb_false_iff in Hc.
    destruct Hc as [Hc1 Hc2]. inversion Hes as [|? ? He Hes']; subst.
    destruct (add_ev_ok m res e Hres He Hc1) as [H1 H2].
    rewrite (IH _ H1 Hes' Hc2), H2, app_assoc. reflexivity.
Qed.

Lemma events_ok t : shape t = true -> Forall ev_ok (events t).
Proof.
  intros Hs. unfold events.
  destruct (contains_comment t || is_some (attrs t)) eqn:E.
  - repeat constructor. assumption.
  - apply orb_false_iff in E. destruct E as [_ E].
    apply Forall_forall. intros e He. apply in_map_iff in He. destruct He as [f [<- Hf]].
    split; [apply (flatten_shape false t f Hf Hs)|].
    destruct (flatten_fields false t f Hf) as [_ [H|[_ H]]]; [|assumption].
    rewrite H. destruct (attrs t); [discriminate|reflexivity].
Qed.

Lemma events_leaves t :
  shape t = true -> flat_map (fun e => leaves (ev_tree e)) (events t) = leaves t.
Proof.
  intros Hs. unfold events.
  destruct (contains_comment t || is_some (attrs t)) eqn:E.
  - cbn [flat_map ev_tree]. apply app_nil_r.
  - apply orb_false_iff in E. destruct E as [_ E].
    rewrite flat_map_map. cbn [ev_tree]. apply flatten_leaves.
    + apply shape_inv in Hs. tauto.
    + right. destruct (attrs t); [discriminate|reflexivity].
Qed.

Lemma regroup_leaves m ns :
  forallb shape ns = true -> alias_clash cmp m ns = false ->
  SameSet (Leaves (regroup cmp m ns)) (Leaves ns).
Proof.
  intros Hs Hc. rewrite regroup_events, run_ok; [|reflexivity| |exact Hc].
  - cbn [Leaves flat_map app]. rewrite flat_map_flat_map.
    unfold Leaves. rewrite (flat_map_ext_in _ leaves ns); [reflexivity|].
    intros t Ht. apply events_leaves, (forallb_In _ _ t Hs Ht).
  - apply Forall_flat_map, Forall_forall. intros t Ht. apply events_ok, (forallb_In _ _ t Hs Ht).
Qed.
End Regroup.

Lemma oN_eqb_eq a b : oN_eqb a b = true -> a = b.
Proof.
  destruct a, b; cbn [oN_eqb]; try discriminate; auto.
  intros H; apply N.eqb_eq in H; subst; reflexivity.
Qed.

Definition no_dup_across (l : list tree) : Prop :=
  forall x y, In x l -> In y l -> tree_eqb x y = true -> cls x = cls y.

Lemma unique_aux_incl l : forall seen x, In x (unique_aux seen l) -> In x l.
Proof.
  induction l as [|y r IH]; intros seen x; cbn [unique_aux]; [auto|].
  destruct (existsb (tree_eqb y) seen); cbn [In]; [|intros [H|H]]; eauto.
Qed.
Lemma unique_aux_repr l : forall seen x, In x l ->
  exists y, In y (seen ++ unique_aux seen l) /\ (x = y \/ tree_eqb x y = true).
Proof.
  induction l as [|z r IH]; intros seen x Hx; [destruct Hx|]. cbn [unique_aux].
  destruct (existsb (tree_eqb z) seen) eqn:E.
  - destruct Hx as [<-|Hx]; [|apply IH, Hx].
    apply existsb_exists in E. destruct E as [y [Hy He]].
    exists y. split; [apply in_or_app; auto|auto].
  - destruct Hx as [<-|Hx]; [exists z; split; [apply in_elt|auto]|].
    destruct (IH (z :: seen) x Hx) as [y [Hy He]]. exists y. split; [|exact He].
    cbn [app In] in Hy. rewrite in_app_iff in *. cbn [In]. tauto.
Qed.

Lemma unique_aux_leaves l : forall seen,
  no_dup_across (seen ++ l) ->
  SameSet (Leaves seen ++ Leaves (unique_aux seen l)) (Leaves seen ++ Leaves l).
Proof.
  intros seen Hnd. rewrite <- !Leaves_app. unfold Leaves. intros lf. rewrite !in_flat_map.
  split; intros [x [Hx Hl]].
  - exists x. split; [|exact Hl]. rewrite in_app_iff in *.
    destruct Hx as [Hx|Hx]; [auto|right; eapply unique_aux_incl, Hx].
  - apply in_app_or in Hx. destruct Hx as [Hx|Hx]; [exists x; split; [apply in_or_app|]; auto|].
    destruct (unique_aux_repr l seen x Hx) as [y [Hy [<-|He]]]; [eauto|].
    exists y. split; [exact Hy|]. rewrite <- (tree_eqb_leaves x y He); [exact Hl|].
    apply Hnd; [apply in_or_app; auto| |exact He].
    rewrite in_app_iff in *. destruct Hy as [Hy|Hy]; [auto|right; eapply unique_aux_incl, Hy].
Qed.

Lemma dup_across_false same l :
  dup_across same l = false ->
  forall x y, In x l -> In y l -> tree_eqb x y = true -> same x y = true.
Proof.
  intros H x y Hx Hy He. unfold dup_across in H.
  destruct (same x y) eqn:Es; auto. rewrite <- H.
  apply existsb_exists. exists x. split; auto. apply existsb_exists. exists y. split; auto.
  rewrite He, Es. reflexivity.
Qed.

Lemma item_leaves ns :
  forallb shape ns = true ->
  DupAcrossVisibility ns = false -> DupAcrossAttrs ns = false ->
  SameSet (Leaves (flatten_use_trees ns)) (Leaves ns).
Proof.
  intros Hs Hv Ha. unfold flatten_use_trees. fold (item_list ns).
  assert (Hnd : no_dup_across ([] ++ item_list ns)).
  { intros x y Hx Hy He. cbn [app] in *. unfold cls. f_equal.
    - apply N.eqb_eq, (dup_across_false _ _ Hv x y Hx Hy He).
    - apply oN_eqb_eq, (dup_across_false _ _ Ha x y Hx Hy He). }
  (* at seen = [] both sides of unique_aux_leaves lose their  Leaves [] ++  by conversion *)
  rewrite (unique_aux_leaves (item_list ns) [] Hnd : SameSet (Leaves (unique_aux [] _)) _).
  unfold item_list, Leaves. cbn [flat_map app].
  rewrite flat_map_map, flat_map_flat_map.
  rewrite (flat_map_ext_in _ leaves ns); [reflexivity|].
  intros t Ht. rewrite (flat_map_ext_in _ leaves) by (intros f _; apply nest_trailing_self_leaves).
  apply flatten_leaves; [|left; reflexivity].
  apply shape_inv, (forallb_In _ _ t Hs Ht).
Qed.

Lemma group_of_lt t : group_of t < 3.
Proof.
  unfold group_of. destruct (path_head t) as [[[n a|a|a|a|]|l]|]; try lia.
  destruct (_ || _); lia.
Qed.
Lemma group_partition ts : Permutation (concat (group_imports ts)) ts.
Proof.
  unfold group_imports. cbn [concat]. rewrite app_nil_r. apply filter3_perm, group_of_lt.
Qed.

Lemma pipeline_perm cmp g grp reorder ts :
  Permutation (concat (pipeline cmp g grp reorder ts))
              (with_granularity cmp g (map (normalize cmp) ts)).
Proof.
  unfold pipeline. rewrite concat_filter_nonnil.
  set (ns := with_granularity cmp g (map (normalize cmp) ts)).
  assert (H1 : Permutation (concat (if grp then group_imports ns else [ns])) ns).
  { destruct grp; [apply group_partition|]. cbn [concat]. rewrite app_nil_r. reflexivity. }
  destruct reorder; [|exact H1].
  eapply Permutation_trans; [apply concat_map_sort_perm|exact H1].
Qed.

Section Final.
Variable cmp : tree -> tree -> comparison.

Lemma ast_shape_inv t :
  ast_shape t = true -> alias_last t = true /\ kids_wf t = true.
Proof.
  unfold ast_shape, kids_wf. intros H. apply andb_true_iff in H. destruct H as [H1 H2].
  apply andb_true_iff in H1. tauto.
Qed.

Lemma normalized_leaves ts :
  forallb ast_shape ts = true ->
  SameSet (Leaves (map (normalize cmp) ts)) (Leaves ts).
Proof.
  intros H. unfold Leaves. rewrite flat_map_map. apply SameSet_flat_map.
  apply Forall_forall. intros t Ht. apply normalize_leaves, ast_shape_inv, (forallb_In _ _ t H Ht).
Qed.

Lemma normalized_shape ts :
  forallb ast_shape ts = true -> NestedEmptyList (map (normalize cmp) ts) = false ->
  forallb shape (map (normalize cmp) ts) = true.
Proof.
  intros H Hn. rewrite forallb_map'. apply forallb_forall. intros t Ht. unfold shape.
  destruct (ast_shape_inv t (forallb_In _ _ t H Ht)) as [Ha _].
  rewrite (normalize_alias_last cmp t Ha), andb_true_r.
  destruct (no_empty_kid (normalize cmp t)) eqn:E; [reflexivity|].
  unfold NestedEmptyList in Hn. rewrite <- Hn.
  apply existsb_exists. exists (normalize cmp t). split; [apply in_map; assumption|].
  rewrite E. reflexivity.
Qed.

Theorem granularity_leaves g ts :
  forallb ast_shape ts = true -> BadClass cmp g ts = false ->
  SameSet (Leaves (with_granularity cmp g (map (normalize cmp) ts))) (Leaves ts).
Proof.
  intros Hs Hb. rewrite <- (normalized_leaves ts Hs).
  unfold BadClass in Hb. destruct g; cbn [with_granularity]; [reflexivity|..];
    apply orb_false_iff in Hb; destruct Hb as [Hb Hc].
  - apply orb_false_iff in Hb. destruct Hb as [He Hv]. apply item_leaves; auto using normalized_shape.
  - apply regroup_leaves; auto using normalized_shape.
  - apply regroup_leaves; auto using normalized_shape.
  - apply regroup_leaves; auto using normalized_shape.
Qed.

Theorem pipeline_leaves g grp reorder ts :
  forallb ast_shape ts = true -> BadClass cmp g ts = false ->
  SameSet (Leaves (concat (pipeline cmp g grp reorder ts))) (Leaves ts).
Proof.
  intros Hs Hb. rewrite (Leaves_perm _ _ (pipeline_perm cmp g grp reorder ts)).
  apply granularity_leaves; assumption.
Qed.

Theorem no_cross_class g grp reorder ts o lf :
  forallb ast_shape ts = true -> BadClass cmp g ts = false ->
  In o (concat (pipeline cmp g grp reorder ts)) -> In lf (leaves o) ->
  exists t, In t ts /\ In lf (leaves t) /\ cls t = cls o.
Proof.
  intros Hs Hb Ho Hlf.
  assert (H : In lf (Leaves (concat (pipeline cmp g grp reorder ts)))).
  { unfold Leaves. apply in_flat_map. exists o. auto. }
  apply (pipeline_leaves g grp reorder ts Hs Hb) in H.
  unfold Leaves in H. apply in_flat_map in H. destruct H as [t [Ht Hl]].
  exists t. repeat split; auto.
  rewrite <- (leaves_cls t lf Hl), <- (leaves_cls o lf Hlf). reflexivity.
Qed.

Lemma add_ev_keeps m t res e :
  passthrough t = true -> In t res -> In t (add_ev cmp m res e).
Proof.
  intros Hp Hin. destruct e as [x|f]; cbn [add_ev].
  - apply in_or_app. auto.
  - unfold add_flattened. destruct (find_index _ 0 res) as [i|] eqn:Ef; [|apply in_or_app; auto].
    apply find_index_nth in Ef. destruct Ef as [r [En Hsh]].
    destruct (apply_at_split (fun t => merge cmp m t f) (fun _ => true) res i r En)
      as [l1 [l2 [-> [-> _]]]].
    rewrite in_app_iff in *. destruct Hin as [H|[H|H]]; cbn [In]; auto.
    subst r. rewrite (passthrough_no_share t f m Hp) in Hsh. discriminate.
Qed.

Lemma fold_add_ev_keeps m t es : forall res,
  passthrough t = true -> In t res -> In t (fold_left (add_ev cmp m) es res).
Proof.
  induction es as [|e es IH]; intros res Hp Hin; cbn [fold_left]; auto.
  apply IH; auto. apply add_ev_keeps; assumption.
Qed.

Lemma regroup_passthrough m ns t :
  In t ns -> passthrough t = true -> In t (regroup cmp m ns).
Proof.
  intros Hin Hp. rewrite regroup_events.
  apply in_split in Hin. destruct Hin as [l1 [l2 E]]. subst ns.
  rewrite flat_map_app, fold_left_app. cbn [flat_map]. rewrite fold_left_app.
  apply fold_add_ev_keeps; [assumption|].
  assert (E : events t = [EPass t]).
  { unfold events. unfold passthrough in Hp. rewrite Hp. reflexivity. }
  rewrite E. cbn [fold_left add_ev].
  apply in_or_app. right. left. reflexivity.
Qed.

Theorem attrs_comment_passthrough g grp reorder ts t :
  g <> Item -> In t (map (normalize cmp) ts) -> passthrough t = true ->
  In t (concat (pipeline cmp g grp reorder ts)).
Proof.
  intros Hg Hin Hp.
  eapply Permutation_in; [apply Permutation_sym, pipeline_perm|].
  destruct g; cbn [with_granularity]; try congruence; auto using regroup_passthrough.
Qed.
End Final.

(* Crate never hits an alias clash: share_prefix compares first segments with == *)
Lemma share_crate_no_root_clash t u :
  share_prefix t u SPCrate = true -> root_clash (path t) (path u) = false.
Proof.
  intros Hs. destruct (share_prefix_inv _ _ _ Hs) as [_ [_ [_ [_ [_ [x [y [Hx [Hy He]]]]]]]]].
  destruct (path_head_cons _ _ Hx) as [r1 E1]. destruct (path_head_cons _ _ Hy) as [r2 E2].
  rewrite E1, E2. cbn [root_clash]. rewrite He. cbn [negb]. rewrite andb_false_r. reflexivity.
Qed.

(* P : an invariant of the descent of merge_clash, from self, other to a kid of self and the rest of
   the path of other *)
Lemma merge_clash_false m (P : tree -> tree -> Prop) :
  (forall t u, P t u -> root_clash (path t) (path u) = false) ->
  (forall p l v a c other x n, P (Node p (Some l) v a c) other -> In x l ->
     share_prefix x (from_path (skipn n (path other))) m = true ->
     P x (from_path (skipn n (path other)))) ->
  forall self other, P self other -> merge_clash m self other = false.
Proof.
  intros Hroot Hkid.
  induction self as [pa ka v a c IH] using tree_ind_kids; intros other HP. cbn [merge_clash].
  rewrite (Hroot _ _ HP : root_clash (map GS pa ++ klist ka) _ = false).
  cbn [orb]. destruct ka as [l|]; [|apply andb_false_r].
  set (u := from_path _).
  destruct (inner_choice m l u) as [|i|] eqn:Ec; try (rewrite !andb_false_r; reflexivity).
  destruct (choice_merge_share _ _ _ _ Ec) as [x [En Hx]]. apply nth_error_In in En as Hin.
  rewrite (check_at_nth _ _ _ _ En), (IH l x eq_refl Hin u), !andb_false_r; [reflexivity|].
  apply (Hkid _ _ _ _ _ _ _ _ HP Hin Hx).
Qed.
Lemma ev_clash_false m res f :
  (forall r, In r res -> share_prefix r f m = true -> merge_clash m r f = false) ->
  ev_clash m res (EFlat f) = false.
Proof.
  intros H. cbn [ev_clash]. destruct (find_index _ 0 res) as [i|] eqn:Ef; [|reflexivity].
  apply find_index_nth in Ef. destruct Ef as [r [En Hsh]].
  rewrite (check_at_nth _ _ _ _ En). apply H; [apply (nth_error_In _ _ En)|exact Hsh].
Qed.

Lemma merge_clash_crate self : forall other,
  share_prefix self other SPCrate = true -> merge_clash SPCrate self other = false.
Proof.
  apply (merge_clash_false SPCrate (fun t u => share_prefix t u SPCrate = true)).
  - apply share_crate_no_root_clash.
  - intros p l v a c other x n _ _ Hx. exact Hx.
Qed.

Lemma run_clash_crate cmp es : forall res, run_clash cmp SPCrate res es = false.
Proof.
  induction es as [|e es IH]; intros res; cbn [run_clash]; [reflexivity|].
  rewrite IH, orb_false_r. destruct e as [t|f]; [reflexivity|].
  apply ev_clash_false. intros r _. apply merge_clash_crate.
Qed.

Theorem crate_leaves cmp ts :
  forallb ast_shape ts = true -> NestedEmptyList (map (normalize cmp) ts) = false ->
  SameSet (Leaves (with_granularity cmp GCrate (map (normalize cmp) ts))) (Leaves ts).
Proof.
  intros Hs Hn. apply granularity_leaves; [assumption|].
  unfold BadClass. rewrite Hn. unfold alias_clash. apply run_clash_crate.
Qed.

Theorem merge_inner_leaves cmp m trees u :
  forallb good trees = true -> good u = true ->
  (forall i x, inner_choice m trees u = CMerge i -> nth_error trees i = Some x ->
               merge_clash m x u = false) ->
  forallb good (merge_use_trees_inner cmp m trees u) = true /\
  forall st, SameSet (flat_map (den st) (merge_use_trees_inner cmp m trees u))
                     (flat_map (den st) trees ++ den st u).
Proof.
  intros Hg Hu Hc. apply inner_ok; auto.
  intros i x Ec En. apply merge_den; [eapply forallb_In, nth_error_In, En; exact Hg|exact Hu|].
  eapply Hc; eassumption.
Qed.

Definition leaf_eqb (x y : leaf) : bool :=
  let '(v1, a1, p1) := x in let '(v2, a2, p2) := y in
  N.eqb v1 v2 && oN_eqb a1 a2 && list_eqb sseg_eqb p1 p2.
Definition subset_b (l1 l2 : list leaf) : bool :=
  forallb (fun x => existsb (leaf_eqb x) l2) l1.
Definition sameset_b (l1 l2 : list leaf) : bool := subset_b l1 l2 && subset_b l2 l1.

Lemma leaf_eqb_eq x y : leaf_eqb x y = true -> x = y.
Proof.
  destruct x as [[v1 a1] p1], y as [[v2 a2] p2]. cbn [leaf_eqb].
  rewrite !andb_true_iff. intros [[H1 H2] H3].
  apply N.eqb_eq in H1. apply oN_eqb_eq in H2. apply list_eqb_sseg_eq in H3. subst. reflexivity.
Qed.
Lemma leaf_eqb_refl x : leaf_eqb x x = true.
Proof.
  destruct x as [[v a] p]. cbn [leaf_eqb]. rewrite N.eqb_refl. cbn [andb].
  assert (Ha : oN_eqb a a = true) by (destruct a; cbn [oN_eqb]; auto using N.eqb_refl).
  rewrite Ha. apply list_eqb_sseg_refl.
Qed.
Lemma subset_b_sound l1 l2 : subset_b l1 l2 = true -> forall x, In x l1 -> In x l2.
Proof.
  unfold subset_b. rewrite forallb_forall. intros H x Hx. specialize (H x Hx).
  apply existsb_exists in H. destruct H as [y [Hy He]]. apply leaf_eqb_eq in He. subst. assumption.
Qed.
Lemma subset_b_complete l1 l2 : (forall x, In x l1 -> In x l2) -> subset_b l1 l2 = true.
Proof.
  intros H. unfold subset_b. apply forallb_forall. intros x Hx.
  apply existsb_exists. exists x. split; [auto|apply leaf_eqb_refl].
Qed.
Lemma sameset_b_false l1 l2 : sameset_b l1 l2 = false -> ~ SameSet l1 l2.
Proof.
  intros H Hs. unfold sameset_b in H.
  rewrite (subset_b_complete l1 l2), (subset_b_complete l2 l1) in H; [discriminate| |];
    intros x Hx; apply Hs; assumption.
Qed.
Lemma sameset_b_true l1 l2 : sameset_b l1 l2 = true -> SameSet l1 l2.
Proof.
  unfold sameset_b. rewrite andb_true_iff. intros [H1 H2] x.
  split; [apply (subset_b_sound _ _ H1)|apply (subset_b_sound _ _ H2)].
Qed.

(* the witnesses of the refuted classes; Examples.v parses them from source text *)
Definition id1 (c : N) : sseg := Ident [c] None.
Definition top (p : list sseg) (k : option (list tree)) (v : N) (a : option N) : tree :=
  Node p k (Some v) a false.
Definition kid (p : list sseg) (k : option (list tree)) : tree := Node p k None None false.
Definition not_preserved (g : granularity) (ts : list tree) : bool :=
  negb (sameset_b (Leaves (with_granularity cmp15 g (map (normalize cmp15) ts))) (Leaves ts)).
Lemma not_preserved_sound g ts :
  not_preserved g ts = true ->
  ~ SameSet (Leaves (with_granularity cmp15 g (map (normalize cmp15) ts))) (Leaves ts).
Proof. unfold not_preserved. intros H. apply sameset_b_false. apply negb_true_iff. exact H. Qed.

(* pub use a; use a; *)
Definition w_vis : list tree := [top [id1 97] None 1 None; top [id1 97] None 0 None].
(* #[x] use a; use a; *)
Definition w_attrs : list tree := [top [id1 97] None 0 (Some 7%N); top [id1 97] None 0 None].
(* use a::{b::{}, c}; *)
Definition w_empty : list tree :=
  [top [id1 97] (Some [kid [id1 98] (Some []); kid [id1 99] None]) 0 None].
(* use a as _; use a; *)
Definition w_root : list tree := [top [Ident [97%N] (Some [95%N])] None 0 None; top [id1 97] None 0 None].
(* use a::BAR; use a as q; *)
Definition w_prefix : list tree :=
  [top [id1 97; Ident [66; 65; 82]%N None] None 0 None; top [Ident [97%N] (Some [113%N])] None 0 None].
(* use a::{c, x}; use a::c as z; *)
Definition w_nested : list tree :=
  [top [id1 97] (Some [kid [id1 99] None; kid [id1 120] None]) 0 None;
   top [id1 97; Ident [99%N] (Some [122%N])] None 0 None].

Lemma DupAcrossVisibility_witness :
  exists ts, forallb ast_shape ts = true /\ DupAcrossVisibility (map (normalize cmp15) ts) = true /\
    ~ SameSet (Leaves (with_granularity cmp15 Item (map (normalize cmp15) ts))) (Leaves ts).
Proof.
  exists w_vis. split; [vm_compute; reflexivity|]. split; [vm_compute; reflexivity|].
  apply not_preserved_sound. vm_compute. reflexivity.
Qed.
Lemma DupAcrossAttrs_witness :
  exists ts, forallb ast_shape ts = true /\ DupAcrossAttrs (map (normalize cmp15) ts) = true /\
    ~ SameSet (Leaves (with_granularity cmp15 Item (map (normalize cmp15) ts))) (Leaves ts).
Proof.
  exists w_attrs. split; [vm_compute; reflexivity|]. split; [vm_compute; reflexivity|].
  apply not_preserved_sound. vm_compute. reflexivity.
Qed.
Lemma NestedEmptyList_witness :
  exists ts, forallb ast_shape ts = true /\ NestedEmptyList (map (normalize cmp15) ts) = true /\
    forall g, g <> Preserve ->
    ~ SameSet (Leaves (with_granularity cmp15 g (map (normalize cmp15) ts))) (Leaves ts).
Proof.
  exists w_empty. split; [vm_compute; reflexivity|]. split; [vm_compute; reflexivity|].
  intros g Hg. apply not_preserved_sound. destruct g; try congruence; vm_compute; reflexivity.
Qed.
Lemma DupModuloRootAlias_witness :
  exists ts, forallb ast_shape ts = true /\ DupModuloRootAlias (map (normalize cmp15) ts) = true /\
    ~ SameSet (Leaves (with_granularity cmp15 Module (map (normalize cmp15) ts))) (Leaves ts) /\
    ~ SameSet (Leaves (with_granularity cmp15 One (map (normalize cmp15) ts))) (Leaves ts).
Proof.
  exists w_root. split; [vm_compute; reflexivity|]. split; [vm_compute; reflexivity|].
  split; apply not_preserved_sound; vm_compute; reflexivity.
Qed.
Lemma AliasedPrefixOne_witness :
  exists ts, forallb ast_shape ts = true /\ AliasedPrefixOne (map (normalize cmp15) ts) = true /\
    ~ SameSet (Leaves (with_granularity cmp15 One (map (normalize cmp15) ts))) (Leaves ts).
Proof.
  exists w_prefix. split; [vm_compute; reflexivity|]. split; [vm_compute; reflexivity|].
  apply not_preserved_sound. vm_compute. reflexivity.
Qed.
Lemma DupModuloAliasNested_witness :
  exists ts, forallb ast_shape ts = true /\ DupModuloAliasNested (map (normalize cmp15) ts) = true /\
    ~ SameSet (Leaves (with_granularity cmp15 One (map (normalize cmp15) ts))) (Leaves ts).
Proof.
  exists w_nested. split; [vm_compute; reflexivity|]. split; [vm_compute; reflexivity|].
  apply not_preserved_sound. vm_compute. reflexivity.
Qed.
(* the alias witnesses lie in BadClass where they lose an import, so they do not contradict
   granularity_leaves; under Crate w_root loses none *)
Lemma alias_witnesses_in_BadClass :
  BadClass cmp15 Module w_root = true /\ BadClass cmp15 One w_root = true /\
  BadClass cmp15 One w_prefix = true /\ BadClass cmp15 One w_nested = true /\
  BadClass cmp15 GCrate w_root = false.
Proof. vm_compute. repeat split. Qed.

Lemma seg_cover ig items : forall cur,
  unseg (seg ig cur items) =
  (match cur with Some r => map inl r | None => [] end) ++ map strip items.
Proof.
  induction items as [|[brk t|id] r IH]; intros cur; cbn [seg map strip].
  - destruct cur; cbn [flush unseg flat_map]; rewrite ?app_nil_r; reflexivity.
  - destruct cur as [run|].
    + destruct (ig && brk).
      * unfold unseg. cbn [flat_map]. fold (unseg (seg ig (Some [t]) r)). rewrite IH. reflexivity.
      * rewrite IH, map_app, <- app_assoc. reflexivity.
    + rewrite IH. reflexivity.
  - unfold unseg. rewrite flat_map_app. cbn [flat_map]. fold (unseg (seg ig None r)).
    rewrite IH. cbn [app]. destruct cur; cbn [flush flat_map]; rewrite ?app_nil_r; reflexivity.
Qed.

Theorem runs_no_crossing cmp g grp reorder ig items :
  unseg (seg ig None items) = map strip items /\
  Forall2 (run_rel cmp g) (seg ig None items) (visit_items cmp g grp reorder ig items).
Proof.
  split; [apply (seg_cover ig items None)|].
  unfold visit_items. induction (seg ig None items) as [|s l IH]; cbn [map]; constructor; auto.
  destruct s as [run|id]; cbn [run_rel]; auto.
  intros H1 H2. apply pipeline_leaves; assumption.
Qed.

Definition gok (x : gseg) : bool :=
  match x with GS s => negb (is_some (salias s)) | GL l => forallb noalias l end.
Definition gnoalias (p : list gseg) : bool := forallb gok p.

Lemma noalias_path t : noalias t = gnoalias (path t).
Proof.
  destruct t as [p k v a c]. unfold path, gnoalias. cbn [noalias pre kids].
  rewrite forallb_app, forallb_map'. cbn [gok]. fold (alias_free p).
  destruct k; cbn [klist forallb gok]; rewrite ?andb_true_r; reflexivity.
Qed.
Lemma of_path_noalias p v a c : gnoalias p = true -> noalias (of_path p v a c) = true.
Proof.
  unfold of_path. revert v a c.
  induction p as [|[s|l] r IH]; intros v a c H; cbn [split_path].
  - reflexivity.
  - cbn [gnoalias forallb gok] in H. apply andb_true_iff in H. destruct H as [H1 H2].
    specialize (IH v a c H2). destruct (split_path r) as [q k].
    cbn [noalias alias_free forallb] in *. rewrite H1. exact IH.
  - cbn [gnoalias forallb gok] in H. apply andb_true_iff in H. destruct H as [H1 _].
    cbn [noalias alias_free forallb]. exact H1.
Qed.
Lemma noalias_suffix n t : noalias t = true -> noalias (from_path (skipn n (path t))) = true.
Proof. rewrite noalias_path. intros H. apply of_path_noalias, forallb_skipn, H. Qed.
Lemma gok_nth0 p : gnoalias p = true -> gok (nth 0 p (GS Glob)) = true.
Proof.
  destruct p as [|x r]; cbn [nth gnoalias forallb]; auto. intros H; apply andb_true_iff in H; tauto.
Qed.
Lemma gok_galias x : gok x = true -> galias x = None.
Proof.
  destruct x as [s|l]; cbn [gok galias]; auto. destruct (salias s); [discriminate|reflexivity].
Qed.

Section NoAlias.
Variable cmp : tree -> tree -> comparison.

Lemma merge_rest_noalias inner pa ka b len :
  gnoalias (map GS pa ++ klist ka) = true -> gnoalias b = true ->
  (forall l, ka = Some l -> forallb noalias (inner l (from_path (skipn len b))) = true) ->
  match merge_rest_with cmp inner pa ka b len with
  | Some np => gnoalias np = true
  | None => True
  end.
Proof.
  intros HA Hb Hinner. unfold merge_rest_with.
  set (A := map GS pa ++ klist ka) in *.
  assert (Hlist : forall n L, forallb noalias L = true -> gnoalias (firstn n b ++ [GL L]) = true).
  { intros n L HL. unfold gnoalias. rewrite forallb_app. cbn [forallb gok].
    rewrite (forallb_firstn _ n b Hb), HL. reflexivity. }
  assert (Hfin : forall n, gnoalias (firstn n b ++
             [GL (sort_by cmp [from_path (skipn n A); from_path (skipn n b)])]) = true).
  { intros n. apply Hlist. rewrite forallb_sort. cbn [forallb]. unfold from_path.
    rewrite !of_path_noalias; auto; apply forallb_skipn; assumption. }
  destruct (Nat.eqb (length A) len && Nat.eqb (length b) len); [exact I|].
  destruct (negb (Nat.eqb (length A) len) && negb (Nat.eqb (length b) len)).
  - destruct ka as [l|]; [|apply Hfin].
    destruct (Nat.eqb len (length pa)); [apply Hlist, Hinner; reflexivity|apply Hfin].
  - destruct (Nat.eqb len 1); [|apply Hfin].
    assert (Hc : galias (if Nat.eqb (length A) len then nth 0 A (GS Glob) else nth 0 b (GS Glob)) = None).
    { destruct (Nat.eqb (length A) len); apply gok_galias, gok_nth0; assumption. }
    cbn [gnoalias forallb gok]. rewrite (gok_nth0 b Hb), Hc, andb_true_r.
    apply (eq_trans (rest_noalias _)), of_path_noalias.
    destruct (Nat.eqb (length A) len); apply forallb_skipn; assumption.
Qed.

Lemma inner_noalias m mrg trees u :
  forallb noalias trees = true -> noalias u = true ->
  (forall x, In x trees -> noalias (mrg x) = true) ->
  forallb noalias (inner_with cmp mrg m trees u) = true.
Proof.
  intros H Hu Hm. unfold inner_with. destruct (inner_choice m trees u).
  - assumption.
  - apply forallb_apply_at; [assumption|]. intros x En. apply Hm, (nth_error_In _ _ En).
  - rewrite forallb_sort, forallb_app. cbn [forallb]. rewrite H, Hu. reflexivity.
Qed.

Lemma merge_noalias m self : forall other,
  noalias self = true -> noalias other = true -> noalias (merge cmp m self other) = true.
Proof.
  induction self as [pa ka v a c IH] using tree_ind_kids; intros other Hs Ho; cbn [merge].
  pose proof Hs as HA. pose proof Ho as HB. rewrite noalias_path in HA, HB.
  pose proof (merge_rest_noalias
                (fun l u => inner_with cmp (fun t => merge cmp m t u) m l u) pa ka (path other)
                (prefix_len true (map GS pa ++ klist ka) (path other)) HA HB) as H.
  destruct (merge_rest_with _ _ _ _ _ _) as [np|]; [|exact Hs]. apply of_path_noalias, H.
  intros l ->. cbn [noalias] in Hs. apply andb_true_iff in Hs. destruct Hs as [_ Hl].
  apply inner_noalias; [exact Hl|apply noalias_suffix, Ho|].
  intros x Hx. apply (IH l x eq_refl Hx); [apply (forallb_In _ _ x Hl Hx)|apply noalias_suffix, Ho].
Qed.
End NoAlias.

Lemma sseg_eea_noalias s t :
  salias s = None -> salias t = None -> sseg_eea s t = sseg_eqb s t.
Proof.
  destruct s, t; cbn [salias sseg_eea sseg_eqb]; intros H1 H2; subst; auto.
  cbn [oname_eqb]. rewrite andb_true_r. reflexivity.
Qed.
Lemma eea_noalias x y : gok x = true -> gok y = true -> eea x y = gseg_eqb x y.
Proof.
  destruct x as [s|l], y as [t|l']; cbn [gok eea gseg_eqb]; auto.
  intros H1 H2. apply sseg_eea_noalias.
  - destruct (salias s); [discriminate|reflexivity].
  - destruct (salias t); [discriminate|reflexivity].
Qed.
Lemma root_clash_noalias a b : gnoalias a = true -> gnoalias b = true -> root_clash a b = false.
Proof.
  destruct a as [|x ra], b as [|y rb]; cbn [root_clash gnoalias forallb]; auto.
  rewrite !andb_true_iff. intros [H1 _] [H2 _]. rewrite (eea_noalias x y H1 H2).
  destruct (gseg_eqb x y); reflexivity.
Qed.

Lemma merge_clash_noalias m self : forall other,
  noalias self = true -> noalias other = true -> merge_clash m self other = false.
Proof.
  intros other Hs Ho.
  apply (merge_clash_false m (fun t u => noalias t = true /\ noalias u = true)); [| |auto].
  - intros t u [Ht Hu]. apply root_clash_noalias; rewrite <- noalias_path; assumption.
  - intros p l v a c u x n [Hl Hu] Hx _. cbn [noalias] in Hl. apply andb_true_iff in Hl.
    split; [apply (forallb_In _ _ x (proj2 Hl) Hx)|apply noalias_suffix, Hu].
Qed.

Section NoAliasRun.
Variable cmp : tree -> tree -> comparison.

Lemma add_ev_noalias m res e :
  forallb noalias res = true -> noalias (ev_tree e) = true ->
  forallb noalias (add_ev cmp m res e) = true.
Proof.
  intros Hres He.
  assert (Hpush : forall t, noalias t = true -> forallb noalias (res ++ [t]) = true)
    by (intros t Ht; rewrite forallb_app; cbn [forallb]; rewrite Hres, Ht; reflexivity).
  destruct e as [t|f]; cbn [add_ev ev_tree] in *; [apply Hpush, He|].
  unfold add_flattened. destruct (find_index _ 0 res) as [i|].
  - apply forallb_apply_at; [exact Hres|]. intros x En. apply merge_noalias; [|exact He].
    apply (forallb_In _ _ x Hres (nth_error_In _ _ En)).
  - destruct m; auto using nest_trailing_self_noalias.
Qed.

Lemma run_clash_noalias m es : forall res,
  forallb noalias res = true -> Forall (fun e => noalias (ev_tree e) = true) es ->
  run_clash cmp m res es = false.
Proof.
  induction es as [|e es IH]; intros res Hres Hes; cbn [run_clash]; [reflexivity|].
  inversion Hes as [|? ? He Hes']; subst.
  rewrite IH; auto using add_ev_noalias. rewrite orb_false_r.
  destruct e as [t|f]; [reflexivity|].
  apply ev_clash_false. intros r Hr _. apply merge_clash_noalias; [|exact He].
  apply (forallb_In _ _ r Hres Hr).
Qed.

Lemma alias_clash_noalias m ts :
  forallb noalias ts = true -> alias_clash cmp m (map (normalize cmp) ts) = false.
Proof.
  intros H. unfold alias_clash. apply run_clash_noalias; [reflexivity|].
  rewrite flat_map_map. apply Forall_flat_map, Forall_forall. intros t Ht.
  assert (Hnt : noalias (normalize cmp t) = true)
    by (apply normalize_noalias, (forallb_In _ _ t H Ht)).
  unfold events. destruct (contains_comment _ || _); [repeat constructor; exact Hnt|].
  apply Forall_map, Forall_forall. intros f Hf. apply (flatten_noalias false _ f Hf Hnt).
Qed.

(* P4 for the runs without `as` *)
Theorem noalias_leaves g ts :
  g = Module \/ g = GCrate \/ g = One ->
  forallb ast_shape ts = true -> forallb noalias ts = true ->
  NestedEmptyList (map (normalize cmp) ts) = false ->
  SameSet (Leaves (with_granularity cmp g (map (normalize cmp) ts))) (Leaves ts).
Proof.
  intros Hg Hs Hn He. apply granularity_leaves; [assumption|].
  unfold BadClass. rewrite He.
  destruct Hg as [ -> | [ -> | -> ] ]; cbn [orb]; apply alias_clash_noalias; assumption.
Qed.
End NoAliasRun.
