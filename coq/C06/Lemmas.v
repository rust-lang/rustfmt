(* C06/Lemmas.v — proofs for C06: flags form a join-semilattice and the exit code is a join-preserving bit of
   them; each emitter's operations and has_diff are given by a boolean equation in the two texts; whole runs
   reduce to one existsb over the inputs. *)
From V Require Import Base.Text C12.Model C12.Lemmas C20.Model C06.Model.
Local Open Scope N_scope.

Lemma flags_add_assoc a b c : flags_add a (flags_add b c) = flags_add (flags_add a b) c.
Proof. unfold flags_add; cbn. f_equal; apply orb_assoc. Qed.

Lemma flags_add_comm a b : flags_add a b = flags_add b a.
Proof. unfold flags_add. f_equal; apply orb_comm. Qed.

Lemma flags_add_idem a : flags_add a a = a.
Proof. destruct a. unfold flags_add; cbn. f_equal; apply orb_diag. Qed.

Lemma flags_add_zero_l a : flags_add flags_zero a = a.
Proof. destruct a. reflexivity. Qed.

Lemma flags_add_zero_r a : flags_add a flags_zero = a.
Proof. rewrite flags_add_comm. apply flags_add_zero_l. Qed.

Lemma flags_semilattice :
  (forall a b c, flags_add a (flags_add b c) = flags_add (flags_add a b) c) /\
  (forall a b, flags_add a b = flags_add b a) /\
  (forall a, flags_add a a = a) /\
  (forall a, flags_add flags_zero a = a).
Proof. repeat split; [apply flags_add_assoc|apply flags_add_comm|apply flags_add_idem|apply flags_add_zero_l]. Qed.

Lemma fold_flags_acc l : forall a, fold_left flags_add l a = flags_add a (fold_left flags_add l flags_zero).
Proof.
  induction l as [|x l IH]; intros a; cbn [fold_left].
  - rewrite flags_add_zero_r. reflexivity.
  - rewrite IH, (IH (flags_add flags_zero x)), flags_add_zero_l, flags_add_assoc. reflexivity.
Qed.

Lemma flags_sum_cons x l : flags_sum (x :: l) = flags_add x (flags_sum l).
Proof. unfold flags_sum. cbn [fold_left]. rewrite fold_flags_acc, flags_add_zero_l. reflexivity. Qed.

Lemma flags_sum_nil : flags_sum [] = flags_zero.
Proof. reflexivity. Qed.

Lemma flags_sum_app l1 l2 : flags_sum (l1 ++ l2) = flags_add (flags_sum l1) (flags_sum l2).
Proof.
  induction l1 as [|x l1 IH]; cbn [app].
  - rewrite flags_sum_nil, flags_add_zero_l. reflexivity.
  - rewrite !flags_sum_cons, IH, flags_add_assoc. reflexivity.
Qed.

Lemma flags_sum_field {A} (g : flags -> bool) (h : A -> flags) :
  (forall a b, g (flags_add a b) = g a || g b) -> g flags_zero = false ->
  forall l, g (flags_sum (map h l)) = existsb (fun x => g (h x)) l.
Proof.
  intros Hadd Hz l. induction l as [|x l IH]; cbn [map existsb].
  - rewrite flags_sum_nil. exact Hz.
  - rewrite flags_sum_cons, Hadd, IH. reflexivity.
Qed.

Lemma flags_sum_diff_flag {A} (g : A -> bool) l :
  flags_sum (map (fun x => diff_flag (g x)) l) = diff_flag (existsb g l).
Proof.
  induction l as [|x l IH]; [reflexivity|]. cbn [map existsb]. rewrite flags_sum_cons, IH. reflexivity.
Qed.

Lemma b2n_one b : N.b2n b = 1 <-> b = true.
Proof. destruct b; split; easy. Qed.

Lemma b2n_orb a b : N.b2n (a || b) = N.max (N.b2n a) (N.b2n b).
Proof. destruct a, b; reflexivity. Qed.

Lemma orb_medial a b c d : (a || b) || (c || d) = (a || c) || (b || d).
Proof. rewrite !orb_assoc, <- (orb_assoc a b c), (orb_comm b c), orb_assoc. reflexivity. Qed.

(* both exit codes are N.b2n of one boolean expression in the flags *)
Definition exit_bit (f : flags) (c : bool) : bool :=
  f_operational f || f_parsing f || (f_diff f || f_check f) && c.

Lemma exit_file_bit f c : exit_file f c = N.b2n (exit_bit f c).
Proof. reflexivity. Qed.

Lemma exit_stdin_bit f : exit_stdin f = N.b2n (exit_bit f false).
Proof. unfold exit_stdin, exit_bit. rewrite andb_false_r, orb_false_r. reflexivity. Qed.

Lemma exit_range_lemma f c : (exit_file f c = 0 \/ exit_file f c = 1) /\ (exit_stdin f = 0 \/ exit_stdin f = 1).
Proof. rewrite exit_file_bit, exit_stdin_bit. destruct (exit_bit f c), (exit_bit f false); auto. Qed.

Lemma exit_bit_add a b c : exit_bit (flags_add a b) c = exit_bit a c || exit_bit b c.
Proof.
  unfold exit_bit, flags_add; cbn [f_operational f_parsing f_diff f_check].
  rewrite (orb_medial (f_diff a)), andb_orb_distrib_l, (orb_medial (f_operational a)), orb_medial. reflexivity.
Qed.

Lemma exit_bit_sum {A} (h : A -> flags) l c :
  exit_bit (flags_sum (map h l)) c = existsb (fun x => exit_bit (h x) c) l.
Proof. apply (flags_sum_field (fun f => exit_bit f c)); [intros a b; apply exit_bit_add|reflexivity]. Qed.

Lemma exit_file_add a b c : exit_file (flags_add a b) c = N.max (exit_file a c) (exit_file b c).
Proof. rewrite !exit_file_bit, exit_bit_add. apply b2n_orb. Qed.

Lemma error_exit_bit f c : f_operational f = true \/ f_parsing f = true -> exit_bit f c = true.
Proof. unfold exit_bit. intros [H|H]; rewrite H; [|rewrite orb_true_r]; reflexivity. Qed.

Lemma error_exit_one f c : f_operational f = true \/ f_parsing f = true -> exit_file f c = 1 /\ exit_stdin f = 1.
Proof. intros H. rewrite exit_file_bit, exit_stdin_bit, !error_exit_bit by exact H. split; reflexivity. Qed.

Definition no_error (f : flags) : Prop :=
  f_operational f = false /\ f_parsing f = false /\ f_check f = false.

Lemma no_error_exit f c : no_error f -> exit_file f c = N.b2n (f_diff f && c).
Proof. intros (Ho & Hp & Hc). unfold exit_file. rewrite Ho, Hp, Hc. destruct (f_diff f); reflexivity. Qed.

Lemma check_exit_iff_has_diff_lemma (f : flags) :
  no_error f -> (exit_file f true = 1 <-> f_diff f = true) /\ exit_file f false = 0.
Proof.
  intros H. rewrite !(no_error_exit f _ H), andb_true_r, andb_false_r. split; [apply b2n_one|reflexivity].
Qed.

Lemma check_exact_stdin_refuted_lemma :
  exists f : flags, no_error f /\ f_diff f = true /\ exit_file f true = 1 /\ exit_stdin f = 0.
Proof. exists (diff_flag true). repeat apply conj; reflexivity. Qed.

Lemma check_forces_diff_lemma :
  (forall toml emit backup, create_emitter (apply_to_mode_full toml true emit None) backup = Diff) /\
  (forall emit, apply_to_mode true emit = MDiff) /\
  (forall emit, stdin_mode true emit = Some MDiff).
Proof. repeat apply conj; reflexivity. Qed.

Lemma check_inline_override_refuted_lemma :
  exists inline, create_emitter (apply_to_mode_full MFiles true None (Some inline)) false = Files.
Proof. exists MFiles. reflexivity. Qed.

Lemma neqb_text_spec a b : negb (eqb_text a b) = true <-> a <> b.
Proof. destruct (eqb_text_reflect a b); split; easy. Qed.

Lemma nonempty_true {A} (l : list A) : nonempty l = true <-> l <> [].
Proof. destruct l; split; easy. Qed.

Lemma nonempty_false {A} (l : list A) : nonempty l = false <-> l = [].
Proof. destruct l; split; easy. Qed.

Lemma nonempty_app {A} (l l' : list A) : nonempty (l ++ l') = nonempty l || nonempty l'.
Proof. destruct l; reflexivity. Qed.

Lemma lines_diff_nil ctx o f : impl_make_diff ctx o f = [] <-> same_lines o f.
Proof. (* same_lines is the conjunction C12 states *) apply empty_iff_lemma. Qed.

Lemma lines_has_diff_iff ctx o f : nonempty (impl_make_diff ctx o f) = true <-> ~ same_lines o f.
Proof. rewrite nonempty_true, lines_diff_nil. reflexivity. Qed.

Section Emit.
Variable tmp_of bk_of : path -> path.
Notation emit := (emit tmp_of bk_of).

Lemma files_ops_eq b n o f :
  e_ops (emit Files b n o f) = if eqb_text o f then [] else [Write n f].
Proof. reflexivity. Qed.

Lemma backup_ops_eq b n o f :
  e_ops (emit FilesWithBackup b n o f) =
  if eqb_text o f then [] else [Remove (tmp_of n); Write (tmp_of n) f; Rename n (bk_of n); Rename (tmp_of n) n].
Proof. reflexivity. Qed.

Lemma non_files_no_ops e b n o f : e <> Files -> e <> FilesWithBackup -> e_ops (emit e b n o f) = [].
Proof.
  intros H1 H2. destruct e; try contradiction; try reflexivity.
  (* Diff: neither test decides the operations *)
  unfold Model.emit, e_ops. cbv zeta.
  destruct (nonempty (impl_make_diff 3 o f)); [reflexivity|]. destruct (eqb_text o f); reflexivity.
Qed.

Lemma only_files_write_lemma e b n o f :
  e_ops (emit e b n o f) <> [] -> e = Files \/ e = FilesWithBackup.
Proof. destruct e; auto; intros H; contradiction H; apply non_files_no_ops; discriminate. Qed.

Lemma files_touch_iff_lemma b n o f :
  (e_ops (emit Files b n o f) <> [] <-> o <> f) /\
  (o <> f -> e_ops (emit Files b n o f) = [Write n f]) /\
  (o = f -> e_ops (emit Files b n o f) = []).
Proof. rewrite files_ops_eq. destruct (eqb_text_reflect o f); repeat split; easy. Qed.

Lemma backup_touch_iff_lemma b n o f :
  (e_ops (emit FilesWithBackup b n o f) <> [] <-> o <> f) /\
  (o <> f -> e_ops (emit FilesWithBackup b n o f) =
             [Remove (tmp_of n); Write (tmp_of n) f; Rename n (bk_of n); Rename (tmp_of n) n]).
Proof. rewrite backup_ops_eq. destruct (eqb_text_reflect o f); repeat split; easy. Qed.

(* Diff sets has_diff for hunks or for the newline-style message: together, exactly when the bytes differ,
   because equal texts have the same lines *)
Lemma diff_has_diff_eq b n o f : e_has_diff (emit Diff b n o f) = negb (eqb_text o f).
Proof.
  cbn. destruct (nonempty (impl_make_diff 3 o f)) eqn:E; [|destruct (eqb_text o f); reflexivity].
  destruct (eqb_text_reflect o f) as [->|_]; [|reflexivity].
  apply lines_has_diff_iff in E. contradiction E. split; reflexivity.
Qed.

Lemma diff_has_diff_iff_lemma b n o f :
  e_has_diff (emit Diff b n o f) = true <-> o <> f.
Proof. rewrite diff_has_diff_eq. apply neqb_text_spec. Qed.

Lemma diff_newline_branch_lemma b n o f :
  e_out (emit Diff b n o f) = OutNewlineStyle <-> (same_lines o f /\ o <> f).
Proof.
  cbn. unfold e_out. destruct (impl_make_diff 3 o f) as [|m ms] eqn:E; cbn [nonempty].
  - apply lines_diff_nil in E. destruct (eqb_text_reflect o f); cbn; split; easy.
  - split; [destruct (b_l b); discriminate|].
    intros [Hs _]. apply (lines_diff_nil 3) in Hs. congruence.
Qed.

Lemma json_has_diff_iff_lemma b n o f :
  e_has_diff (emit Json b n o f) = true <-> ~ same_lines o f.
Proof. apply lines_has_diff_iff. Qed.

Lemma modified_lines_has_diff_iff_lemma b n o f :
  e_has_diff (emit ModifiedLines b n o f) = true <-> ~ same_lines o f.
Proof. apply lines_has_diff_iff. Qed.

Lemma checkstyle_never_has_diff_lemma b n o f : e_has_diff (emit Checkstyle b n o f) = false.
Proof. reflexivity. Qed.

Lemma files_never_has_diff_lemma b n o f :
  e_has_diff (emit Files b n o f) = false /\ e_has_diff (emit FilesWithBackup b n o f) = false /\
  e_has_diff (emit Stdout b n o f) = false.
Proof. repeat apply conj; reflexivity. Qed.

(* texts that differ only in line terminators: json / modified-lines report nothing *)
Lemma lines_blind_witness :
  exists o f : text, o <> f /\
    (forall b n, e_has_diff (emit Json b n o f) = false /\ e_out (emit Json b n o f) = OutJsonAcc None) /\
    (forall b n, e_has_diff (emit ModifiedLines b n o f) = false /\ e_out (emit ModifiedLines b n o f) = OutModified []) /\
    (forall b n, e_has_diff (emit Diff b n o f) = true).
Proof.
  exists [97; 13; 10], [97; 10]. split; [discriminate|]. repeat (intros; apply conj); reflexivity.
Qed.

Lemma same_pair_lemma e b auto stdin n disk f :
  write_file tmp_of bk_of e b auto stdin n disk f = emit e b n (original_seen auto stdin disk) f.
Proof. reflexivity. Qed.

Lemma stdout_is_formatted_lemma b n o f :
  emit Stdout b n o f = ([], OutText (negb (b_quiet b)) f, false) /\
  (forall x, In x (e_ops (emit Files b n o f)) -> x = Write n f) /\
  (forall x, In x (e_ops (emit FilesWithBackup b n o f)) ->
             x = Remove (tmp_of n) \/ x = Write (tmp_of n) f \/ x = Rename n (bk_of n) \/ x = Rename (tmp_of n) n).
Proof.
  rewrite files_ops_eq, backup_ops_eq. split; [reflexivity|].
  split; intros x; destruct (eqb_text o f); cbn [In]; intros H; try contradiction.
  - destruct H as [H|H]; [auto|contradiction].
  - destruct H as [H|[H|[H|[H|H]]]]; auto. contradiction.
Qed.

Lemma modified_lines_implies_formatted_lemma b n o f cs :
  e_out (emit ModifiedLines b n o f) = OutModified cs ->
  apply_chunks 1 (dlines o) cs = Some (dlines f).
Proof.
  (* congruence, because injection on an equation in [out] is slow to check *)
  intros H. change (OutModified (modified_lines (impl_make_diff 0 o f)) = OutModified cs) in H.
  assert (cs = modified_lines (impl_make_diff 0 o f)) as -> by congruence.
  destruct (diff_lines_valid o f) as (HL & HR & Hbe).
  unfold impl_make_diff. rewrite <- HL, <- HR. apply apply_reconstructs_lemma. exact Hbe.
Qed.

Notation run_ops := (run_ops tmp_of bk_of).
Notation run_flags := (run_flags tmp_of bk_of).
Notation emit_one := (emit_one tmp_of bk_of).

(* the text write_file compares differs from the formatted one: what the Diff emitter reports and what the
   Files emitter rewrites *)
Definition changed (auto : bool) (i : input) : bool :=
  negb (eqb_text (original_seen auto false (in_disk i)) (in_fmt i)).

Lemma changed_spec auto i : changed auto i = true <-> original_seen auto false (in_disk i) <> in_fmt i.
Proof. apply neqb_text_spec. Qed.

Lemma run_flags_eq e b auto ins :
  run_flags e b auto ins = diff_flag (existsb (fun i => e_has_diff (emit_one e b auto i)) ins).
Proof. apply flags_sum_diff_flag. Qed.

Lemma diff_run_exit b auto ins :
  exit_file (run_flags Diff b auto ins) true = N.b2n (existsb (changed auto) ins).
Proof.
  rewrite run_flags_eq, no_error_exit, andb_true_r by (repeat apply conj; reflexivity). cbn [f_diff diff_flag]. f_equal.
  induction ins as [|i ins IH]; [reflexivity|]. cbn [existsb]. rewrite IH. f_equal. apply diff_has_diff_eq.
Qed.

Lemma files_run_nonempty b auto ins : nonempty (run_ops Files b auto ins) = existsb (changed auto) ins.
Proof.
  unfold run_ops. induction ins as [|i ins IH]; [reflexivity|]. cbn [map concat existsb].
  rewrite nonempty_app, IH. f_equal.
  unfold emit_one, write_file, changed. rewrite files_ops_eq. destruct (eqb_text _ _); reflexivity.
Qed.

Lemma check_exact_files_lemma b auto ins :
  exit_file (run_flags Diff b auto ins) true = 1 <->
  exists i, In i ins /\ original_seen auto false (in_disk i) <> in_fmt i.
Proof.
  rewrite diff_run_exit, b2n_one, existsb_exists.
  split; intros (i & Hin & H); exists i; (split; [exact Hin|]); apply changed_spec; exact H.
Qed.

Lemma check_iff_plain_rewrites_lemma b b' auto ins :
  (exit_file (run_flags Diff b auto ins) true = 1 <-> run_ops Files b' auto ins <> []) /\
  (exit_file (run_flags Diff b auto ins) true = 0 <-> run_ops Files b' auto ins = []).
Proof.
  rewrite diff_run_exit, <- nonempty_true, <- nonempty_false, files_run_nonempty.
  destruct (existsb (changed auto) ins); repeat split; intros H; try reflexivity; discriminate H.
Qed.

Lemma non_files_run_no_ops e b auto ins :
  e <> Files -> e <> FilesWithBackup -> run_ops e b auto ins = [].
Proof.
  intros H1 H2. unfold run_ops. induction ins as [|i ins IH]; [reflexivity|]. cbn [map concat].
  rewrite IH. unfold emit_one, write_file. rewrite non_files_no_ops by assumption. reflexivity.
Qed.

(* newline_style = Auto: a file differing from its formatted text only in terminators (or a BOM) is neither
   rewritten nor reported *)
Lemma auto_blind_lemma :
  exists disk fmt : text, disk <> fmt /\
    (forall b n, run_ops Files b true [(n, disk, fmt)] = []) /\
    (forall b n, exit_file (run_flags Diff b true [(n, disk, fmt)]) true = 0) /\
    (forall b n, run_ops Files b false [(n, disk, fmt)] = [Write n fmt]) /\
    (forall b n, exit_file (run_flags Diff b false [(n, disk, fmt)]) true = 1).
Proof. exists [97; 13; 10], [97; 10]. split; [discriminate|]. repeat apply conj; reflexivity. Qed.

Lemma files_touch_disk_lemma b n disk f :
  (e_ops (write_file tmp_of bk_of Files b false false n disk f) <> [] <-> disk <> f) /\
  (e_ops (write_file tmp_of bk_of Files b true false n disk f) <> [] <-> rustc_normalize disk <> f).
Proof. split; apply files_touch_iff_lemma. Qed.

(* model-level: under Auto the comparison is against the normalised text, so a formatted text containing CR LF
   that equals the disk bytes is written again *)
Lemma files_touch_only_if_disk_differs_auto_refuted_lemma :
  exists disk f : text, disk = f /\ forall b n, e_ops (write_file tmp_of bk_of Files b true false n disk f) = [Write n f].
Proof. exists [97; 13; 10], [97; 13; 10]. split; reflexivity. Qed.
End Emit.
