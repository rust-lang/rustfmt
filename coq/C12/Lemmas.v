(* Props.v states its theorems in osd, nsd, hunk_at, jblock_ok, nolf, WF (that is wf_chunk) and no_cr_end, defined here *)
From V Require Import Base.Text C12.Model.
Local Open Scope nat_scope.
Arguments Nat.leb : simpl never.
Arguments Nat.ltb : simpl never.
Arguments Nat.eqb : simpl never.
Arguments Nat.sub : simpl never.
#[local] Arguments N.add : simpl never.
#[local] Arguments N.sub : simpl never.
#[local] Arguments N.mul : simpl never.
#[local] Arguments N.div : simpl never.
#[local] Arguments N.modulo : simpl never.
#[local] Arguments N.ltb : simpl never.
#[local] Arguments N.leb : simpl never.
#[local] Arguments N.eqb : simpl never.
#[local] Arguments N.of_nat : simpl never.

Fixpoint osd {A} (ls : list (dline A)) : list A :=   (* original side: context + removed *)
  match ls with
  | [] => []
  | Exp _ :: t => osd t
  | Ctx x :: t => x :: osd t
  | Res x :: t => x :: osd t
  end.
Fixpoint nsd {A} (ls : list (dline A)) : list A :=   (* new side: context + added *)
  match ls with
  | [] => []
  | Res _ :: t => nsd t
  | Ctx x :: t => x :: nsd t
  | Exp x :: t => x :: nsd t
  end.

Definition hunk_at {A} (a b : list A) (m : mismatch A) : Prop :=
  (exists pa xa, a = pa ++ osd (mm_lines m) ++ xa /\ S (length pa) = mm_orig m) /\
  (exists pb xb, b = pb ++ nsd (mm_lines m) ++ xb /\ S (length pb) = mm_line m).

(* the subtraction is that of nat: end = begin for an empty side *)
Definition jblock_ok {A} (a b : list A) (j : jblock A) : Prop :=
  (exists pa xa, a = pa ++ j_original j ++ xa /\ S (length pa) = j_obegin j) /\
  (exists pb xb, b = pb ++ j_expected j ++ xb /\ S (length pb) = j_ebegin j) /\
  j_oend j = j_obegin j + (length (j_original j) - 1) /\
  j_eend j = j_ebegin j + (length (j_expected j) - 1).

Local Open Scope N_scope.
(* well-formedness of a report: what a value of the Rust type satisfies (fields are u32, a Vec has at most
   usize::MAX elements) plus: no reported line contains LF.  Nothing about CR. *)
Definition nolf (l : text) : Prop := ~ In LF l.
Definition wf_chunk (c : mchunk) : Prop :=
  mc_orig c <= U32_MAX /\ mc_removed c <= U32_MAX /\
  N.of_nat (length (mc_lines c)) <= USIZE_MAX /\ Forall nolf (mc_lines c).
Definition WF (cs : list mchunk) : Prop := Forall wf_chunk cs.
(* what the pre-repair parser, which splits with str::lines, needs in addition *)
Definition no_cr_end (l : text) : Prop := forall l', l <> l' ++ [CR].
Local Close Scope N_scope.

Lemma snoc_app {A} (p : list A) x t : (p ++ [x]) ++ t = p ++ x :: t.
Proof. rewrite <- app_assoc. reflexivity. Qed.
Lemma suffix_tl {A} (p q : list A) : (exists p', p = p' ++ q) -> exists p', p = p' ++ tl q.
Proof.
  intros [p' ->]. destruct q as [|x q]; cbn [tl]; [exists p'; reflexivity|].
  exists (p' ++ [x]). symmetry. apply snoc_app.
Qed.

Lemma skipn_add {A} n m : forall l : list A, skipn (n + m) l = skipn m (skipn n l).
Proof.
  induction n as [|n IH]; intros l; [reflexivity|].
  destruct l as [|x l]; cbn [plus skipn]; [destruct m; reflexivity|apply IH].
Qed.

Lemma split3 {A} (l : list A) n m : firstn n l ++ firstn m (skipn n l) ++ skipn (n + m) l = l.
Proof.
  rewrite skipn_add, (firstn_skipn m (skipn n l)). apply firstn_skipn.
Qed.

(* the last [k] elements, as diff::iter cuts them off and as it finds them *)
Lemma skipn_tail {A} (l : list A) n k :
  n + k <= length l -> skipn (n + (length l - n - k)) l = rev (firstn k (rev l)).
Proof. intros H. rewrite firstn_rev, rev_involutive. f_equal. lia. Qed.
Lemma nth_rev_middle {A} (li la : list A) l d : nth (length li) (rev li ++ l :: la) d = l.
Proof. rewrite <- (rev_length li). apply nth_middle. Qed.

Lemma projL_app {A} (s t : list (dres A)) : projL (s ++ t) = projL s ++ projL t.
Proof. induction s as [|[x|x|l r] s IH]; cbn [projL app]; rewrite ?IH; reflexivity. Qed.
Lemma projR_app {A} (s t : list (dres A)) : projR (s ++ t) = projR s ++ projR t.
Proof. induction s as [|[x|x|l r] s IH]; cbn [projR app]; rewrite ?IH; reflexivity. Qed.
Lemma projL_rev {A} (s : list (dres A)) : projL (rev s) = rev (projL s).
Proof.
  induction s as [|[x|x|l r] s IH]; cbn [rev projL]; rewrite ?projL_app, ?IH; cbn [projL]; rewrite ?app_nil_r; reflexivity.
Qed.
Lemma projR_rev {A} (s : list (dres A)) : projR (rev s) = rev (projR s).
Proof.
  induction s as [|[x|x|l r] s IH]; cbn [rev projR]; rewrite ?projR_app, ?IH; cbn [projR]; rewrite ?app_nil_r; reflexivity.
Qed.

Lemma both_eq_cons {A} {d : dres A} {s} : both_eq (d :: s) -> both_eq s.
Proof. intros H l r Hin. apply H. right. exact Hin. Qed.
Lemma both_eq_head {A} {l r : A} {s} : both_eq (B l r :: s) -> l = r.
Proof. intros H. apply H. left. reflexivity. Qed.
Lemma both_eq_intro {A} (d : dres A) s : (forall l r, d = B l r -> l = r) -> both_eq s -> both_eq (d :: s).
Proof. intros Hd Hs l r [E|Hin]; [apply Hd; exact E|apply Hs; exact Hin]. Qed.
Lemma both_eq_app {A} (s t : list (dres A)) : both_eq s -> both_eq t -> both_eq (s ++ t).
Proof. intros Hs Ht l r Hin. apply in_app_or in Hin. destruct Hin as [Hin|Hin]; [apply Hs|apply Ht]; exact Hin. Qed.
Lemma all_both_proj {A} (s : list (dres A)) : forallb is_both s = true -> both_eq s -> projL s = projR s.
Proof.
  induction s as [|[x|x|l r] s IH]; cbn [forallb is_both andb projL projR]; intros H Hbe; try discriminate.
  - reflexivity.
  - rewrite (both_eq_head Hbe), (IH H (both_eq_cons Hbe)). reflexivity.
Qed.

Lemma exp_lines_app {A} (a b : list (dline A)) : exp_lines (a ++ b) = exp_lines a ++ exp_lines b.
Proof. induction a as [|[x|x|x] a IH]; cbn [exp_lines app]; rewrite ?IH; reflexivity. Qed.
Lemma res_lines_app {A} (a b : list (dline A)) : res_lines (a ++ b) = res_lines a ++ res_lines b.
Proof. induction a as [|[x|x|x] a IH]; cbn [res_lines app]; rewrite ?IH; reflexivity. Qed.
Lemma filter_res_length {A} (ls : list (dline A)) : length (filter is_res ls) = length (res_lines ls).
Proof.
  induction ls as [|d ls IH]; [reflexivity|]. destruct d; cbn [filter is_res res_lines length]; lia.
Qed.

Lemma osd_app {A} (a b : list (dline A)) : osd (a ++ b) = osd a ++ osd b.
Proof. induction a as [|[x|x|x] a IH]; cbn [osd app]; rewrite ?IH; reflexivity. Qed.
Lemma nsd_app {A} (a b : list (dline A)) : nsd (a ++ b) = nsd a ++ nsd b.
Proof. induction a as [|[x|x|x] a IH]; cbn [nsd app]; rewrite ?IH; reflexivity. Qed.
Lemma osd_ctx {A} (q : list A) : osd (map Ctx q) = q.
Proof. induction q as [|x q IH]; cbn [osd map]; rewrite ?IH; reflexivity. Qed.
Lemma nsd_ctx {A} (q : list A) : nsd (map Ctx q) = q.
Proof. induction q as [|x q IH]; cbn [nsd map]; rewrite ?IH; reflexivity. Qed.
Lemma osd_fresh {A} (q : list A) e : osd (map Ctx q ++ [e]) = q ++ osd [e].
Proof. rewrite osd_app, osd_ctx. reflexivity. Qed.
Lemma nsd_fresh {A} (q : list A) e : nsd (map Ctx q ++ [e]) = q ++ nsd [e].
Proof. rewrite nsd_app, nsd_ctx. reflexivity. Qed.

Lemma mm_add_add {A} (m : mismatch A) a b : mm_add (mm_add m a) b = mm_add m (a ++ b).
Proof. unfold mm_add. cbn [mm_line mm_orig mm_lines]. rewrite app_assoc. reflexivity. Qed.
Lemma mm_add_nil {A} (m : mismatch A) : mm_add m [] = m.
Proof. unfold mm_add. rewrite app_nil_r. destruct m; reflexivity. Qed.

(* the test `lines_since_mismatch >= context_size && lines_since_mismatch > 0`: the open mismatch is finished *)
Lemma closes_spec ctx lsm : BoolSpec (ctx <= lsm /\ 0 < lsm) (lsm < ctx \/ lsm = 0) (Nat.leb ctx lsm && Nat.ltb 0 lsm).
Proof. destruct (Nat.leb_spec ctx lsm); destruct (Nat.ltb_spec 0 lsm); constructor; lia. Qed.

Lemma go_nonempty {A} ctx (s : list (dres A)) : forall ln lo q lsm cur, go ctx ln lo q lsm cur s <> [].
Proof.
  induction s as [|d s IH]; intros ln lo q lsm cur; [discriminate|].
  destruct d as [x|x|l r]; cbn [go].
  1,2: destruct (Nat.leb ctx lsm && Nat.ltb 0 lsm); [discriminate|apply IH].
  destruct (Nat.ltb lsm ctx); apply IH.
Qed.

Lemma go_closed_tl {A} ctx (s : list (dres A)) : forall ln lo q lsm cur, ctx <= lsm -> 0 < lsm ->
  tl (go ctx ln lo q lsm cur s) = [] <-> forallb is_both s = true.
Proof.
  induction s as [|d s IH]; intros ln lo q lsm cur Hc Hz; [split; reflexivity|].
  destruct d as [x|x|l r]; cbn [go forallb is_both andb].
  1,2: (* L, R *)
    destruct (closes_spec ctx lsm) as [_|H]; [cbn [tl]|lia];
    split; [intros E; destruct (go_nonempty _ _ _ _ _ _ _ E)|discriminate].
  (* B *) destruct (Nat.ltb_spec lsm ctx) as [H|_]; [lia|]. apply IH; lia.
Qed.

Lemma make_diff_nil_iff {A} ctx (s : list (dres A)) :
  make_diff ctx s = [] <-> forallb is_both s = true.
Proof. unfold make_diff. apply go_closed_tl; lia. Qed.

(* the mismatches ms lie in this order in the original lines a and in the formatted lines b, and between
   them the two are the same; pa, pb are what comes before a and b (line numbers are 1 + lengths) *)
Inductive tiles {A} : list A -> list A -> list A -> list A -> list (mismatch A) -> Prop :=
| tiles_nil pa pb g : tiles pa pb g g []
| tiles_cons pa pb g m ms a b :
    mm_orig m = S (length (pa ++ g)) -> mm_line m = S (length (pb ++ g)) ->
    tiles (pa ++ g ++ osd (mm_lines m)) (pb ++ g ++ nsd (mm_lines m)) a b ms ->
    tiles pa pb (g ++ osd (mm_lines m) ++ a) (g ++ nsd (mm_lines m) ++ b) (m :: ms).

(* what a state of the loop emits when ta, tb are still to come after pa, pb: first [cur] with some more
   lines, which ta and tb begin with (none if [fin]: the open mismatch is finished), then mismatches
   that lie in the rest.  Nothing is said of where [cur] lies: make_diff starts with a dummy *)
Definition continues {A} (pa pb ta tb : list A) (cur : mismatch A) (fin : Prop) (ms : list (mismatch A)) : Prop :=
  exists ext rest a b, ms = mm_add cur ext :: rest /\ ta = osd ext ++ a /\ tb = nsd ext ++ b /\
    (fin -> ext = []) /\ tiles (pa ++ osd ext) (pb ++ nsd ext) a b rest.

Lemma continues_add {A} (pa pb ta tb : list A) cur new (fin fin' : Prop) ms : ~ fin ->
  continues (pa ++ osd new) (pb ++ nsd new) ta tb (mm_add cur new) fin' ms ->
  continues pa pb (osd new ++ ta) (nsd new ++ tb) cur fin ms.
Proof.
  intros Hn (ext & rest & a & b & -> & -> & -> & _ & Ht). exists (new ++ ext), rest, a, b.
  rewrite mm_add_add, osd_app, nsd_app, <- !app_assoc in *. repeat split; [contradiction|exact Ht].
Qed.

Lemma continues_emit {A} (pa pb g ta tb : list A) cur new (fin fin' : Prop) ms :
  mm_orig new = S (length (pa ++ g)) -> mm_line new = S (length (pb ++ g)) ->
  continues (pa ++ g ++ osd (mm_lines new)) (pb ++ g ++ nsd (mm_lines new)) ta tb new fin' ms ->
  continues pa pb (g ++ osd (mm_lines new) ++ ta) (g ++ nsd (mm_lines new) ++ tb) cur fin (cur :: ms).
Proof.
  intros Ho Hl (ext & rest & a & b & -> & -> & -> & _ & Ht).
  rewrite <- !app_assoc, <- osd_app, <- nsd_app in Ht.
  apply (tiles_cons pa pb g (mm_add new ext) _ _ _ Ho Hl) in Ht.
  cbn [mm_add mm_lines] in Ht. rewrite osd_app, nsd_app, <- !app_assoc in Ht.
  exists [], (mm_add new ext :: rest), (g ++ osd (mm_lines new) ++ osd ext ++ a), (g ++ nsd (mm_lines new) ++ nsd ext ++ b).
  cbn [osd nsd app]. rewrite mm_add_nil, !app_nil_r.
  repeat split. exact Ht.
Qed.

Lemma continues_weaken {A} (pa pb ta tb : list A) cur (fin fin' : Prop) ms :
  (fin -> fin') -> continues pa pb ta tb cur fin' ms -> continues pa pb ta tb cur fin ms.
Proof. intros Hf (ext & rest & a & b & H1 & H2 & H3 & H4 & H5). exists ext, rest, a, b. repeat split; auto. Qed.

(* the state of the loop when [cur] ends with pa, pb and g more lines have gone by on both sides: the
   line counters, and the context queue, which holds the last of those lines *)
Definition loop_st {A} ctx (pa pb g q : list A) lsm ln lo : Prop :=
  ln = S (length (pb ++ g)) /\ lo = S (length (pa ++ g)) /\ (exists g0, g = g0 ++ q) /\ length q <= ctx /\
  (lsm < ctx \/ lsm = 0 -> g = []).

Lemma st_nil {A} ctx : @loop_st A ctx [] [] [] [] (S ctx) 1 1.
Proof. repeat split; try (exists []; reflexivity); cbn [length]; lia. Qed.

Lemma st_edit {A ctx} {pa pb g q : list A} (u v : list A) {lsm} lsm' {ln lo} : loop_st ctx pa pb g q lsm ln lo ->
  loop_st ctx (pa ++ g ++ u) (pb ++ g ++ v) [] [] lsm' (length v + ln) (length u + lo).
Proof.
  intros (-> & -> & _). repeat split; rewrite ?app_length; try (exists []; reflexivity); cbn [length]; lia.
Qed.

Lemma st_noqueue {A ctx} {pa pb g q : list A} {lsm ln lo} :
  loop_st ctx pa pb g q lsm ln lo -> lsm < ctx \/ lsm = 0 -> g = [] /\ q = [].
Proof.
  intros (_ & _ & (g0 & E) & _ & H) Hl. rewrite (H Hl) in *. split; [reflexivity|].
  symmetry in E. apply app_eq_nil in E. apply E.
Qed.

Lemma st_fresh {A ctx} {pa pb g q : list A} {lsm ln lo} : loop_st ctx pa pb g q lsm ln lo ->
  exists g0, g = g0 ++ q /\ lo - length q = S (length (pa ++ g0)) /\ ln - length q = S (length (pb ++ g0)).
Proof. intros (-> & -> & (g0 & ->) & _). exists g0. rewrite !app_length. repeat split; lia. Qed.

(* a B line that does not go into the open mismatch is queued, the oldest queued line making room *)
Lemma st_both {A ctx} {pa pb g q : list A} {lsm ln lo} y : loop_st ctx pa pb g q lsm ln lo -> ctx <= lsm ->
  loop_st ctx pa pb (g ++ [y])
     (if Nat.ltb 0 ctx then (if Nat.leb ctx (length q) then tl q else q) ++ [y]
      else if Nat.leb ctx (length q) then tl q else q) (S lsm) (S ln) (S lo).
Proof.
  intros (-> & -> & Hg & Hl & _) Hc.
  set (q1 := if Nat.leb ctx (length q) then tl q else q).
  assert (H1 : exists g0, g = g0 ++ q1).
  { unfold q1. destruct (Nat.leb ctx (length q)); [apply suffix_tl|]; exact Hg. }
  assert (Hl1 : length q1 <= ctx - 1).
  { unfold q1. destruct (Nat.leb_spec ctx (length q)); [destruct q; cbn [tl length] in *|]; lia. }
  destruct H1 as [g1 Eg]. destruct (Nat.ltb_spec 0 ctx) as [Hpos|Hzero].
  - repeat split; rewrite ?app_assoc, ?last_length; try lia; try reflexivity.
    exists g1. rewrite Eg, <- !app_assoc. reflexivity.
  - assert (q1 = []) as -> by (apply length_zero_iff_nil; lia).
    repeat split; rewrite ?app_assoc, ?last_length; try (cbn [length]; lia); try reflexivity.
    exists (g ++ [y]). symmetry. apply app_nil_r.
Qed.

Lemma go_tiles {A} ctx (s : list (dres A)) : both_eq s ->
  forall pa pb g q lsm cur ln lo, loop_st ctx pa pb g q lsm ln lo ->
  continues pa pb (g ++ projL s) (g ++ projR s) cur (ctx <= lsm /\ 0 < lsm) (go ctx ln lo q lsm cur s).
Proof.
  induction s as [|d s IH]; intros Hbe pa pb g q lsm cur ln lo Hst.
  - exists [], [], g, g. rewrite mm_add_nil, !app_nil_r. repeat split. apply tiles_nil.
  - specialize (IH (both_eq_cons Hbe)).
    (* an L or R entry: [e] its line, ln', lo' the counters after it *)
    assert (Hedit : forall e ln' lo', ln' = length (nsd [e]) + ln -> lo' = length (osd [e]) + lo ->
      continues pa pb (g ++ osd [e] ++ projL s) (g ++ nsd [e] ++ projR s) cur (ctx <= lsm /\ 0 < lsm)
        (if Nat.leb ctx lsm && Nat.ltb 0 lsm
         then cur :: go ctx ln' lo' [] 0 (MkMM (ln - length q) (lo - length q) (map Ctx q ++ [e])) s
         else go ctx ln' lo' [] 0 (mm_add cur (map Ctx q ++ [e])) s)).
    { intros e ? ? -> ->. pose proof (fun c => IH _ _ _ _ 0 c _ _ (st_edit (osd [e]) (nsd [e]) 0 Hst)) as IHe.
      destruct (closes_spec ctx lsm) as [Hc|Hc].
      - destruct (st_fresh Hst) as (g0 & -> & Fo & Fl).
        (* the queued lines q, so far the end of the common run g0 ++ q, are the first lines of the new mismatch *)
        rewrite <- !app_assoc, !(app_assoc q), <- osd_fresh, <- nsd_fresh in *.
        eapply (continues_emit pa pb g0 _ _ cur (MkMM (ln - length q) (lo - length q) (map Ctx q ++ [e]))); [exact Fo|exact Fl|apply IHe].
      - destruct (st_noqueue Hst Hc) as [-> ->]. cbn [map app] in *.
        eapply continues_add; [lia|apply IHe]. }
    destruct d as [x|x|l r]; cbn [go projL projR].
    + (* L *) exact (Hedit (Res x) ln (S lo) eq_refl eq_refl).
    + (* R *) exact (Hedit (Exp x) (S ln) lo eq_refl eq_refl).
    + (* B *) rewrite <- (both_eq_head Hbe). destruct (Nat.ltb_spec lsm ctx) as [Hlt|Hge].
      * (* within ctx lines of [cur]: the line goes into it *)
        destruct (st_noqueue Hst (or_introl Hlt)) as [-> ->]. cbn [app] in *.
        eapply (continues_add pa pb _ _ cur [Ctx l]); [lia|].
        apply (IH (pa ++ [l]) (pb ++ [l]) []).
        (* the queue stays empty: it is [if _ then tl [] else []] *)
        destruct (Nat.leb ctx (length (@nil A))); apply (st_edit [l] [l] _ Hst).
      * (* otherwise it is queued *)
        rewrite <- (snoc_app g l (projL s)), <- (snoc_app g l (projR s)).
        eapply continues_weaken; [|apply IH, (st_both l Hst Hge)]. lia.
Qed.

Lemma make_diff_tiles {A} ctx (s : list (dres A)) :
  both_eq s -> tiles [] [] (projL s) (projR s) (make_diff ctx s).
Proof.
  intros Hbe. unfold make_diff.
  destruct (go_tiles ctx s Hbe [] [] [] [] (S ctx) (MkMM 0 0 []) 1 1 (st_nil ctx))
    as (ext & rest & a & b & -> & Ea & Eb & Hfin & Ht).
  rewrite Hfin in * by lia. cbn [app osd nsd tl] in *. rewrite Ea, Eb. exact Ht.
Qed.

Lemma tiles_hunks {A} (pa pb a b : list A) ms : tiles pa pb a b ms -> Forall (hunk_at (pa ++ a) (pb ++ b)) ms.
Proof.
  induction 1 as [|pa pb g m ms a b Ho Hl _ IH]; constructor.
  - split; [exists (pa ++ g), a|exists (pb ++ g), b]; rewrite <- app_assoc; auto.
  - rewrite <- !app_assoc in IH. exact IH.
Qed.

Lemma hunks_consistent_lemma {A} ctx (s : list (dres A)) :
  both_eq s -> Forall (hunk_at (projL s) (projR s)) (make_diff ctx s).
Proof. intros Hbe. apply (tiles_hunks [] []), make_diff_tiles, Hbe. Qed.

Definition is_ctx {A} (d : dline A) : bool := match d with Ctx _ => true | _ => false end.
Definition noctx {A} (ls : list (dline A)) : Prop := forallb (fun d => negb (is_ctx d)) ls = true.

Lemma noctx_app {A} (a b : list (dline A)) : noctx a -> noctx b -> noctx (a ++ b).
Proof. unfold noctx. rewrite forallb_app. intros -> ->. reflexivity. Qed.
Lemma noctx_osd {A} (ls : list (dline A)) : noctx ls -> osd ls = res_lines ls /\ nsd ls = exp_lines ls.
Proof.
  unfold noctx. induction ls as [|[x|x|x] ls IH]; cbn [forallb is_ctx negb andb osd nsd res_lines exp_lines]; intros H.
  - split; reflexivity.
  - discriminate.
  - destruct (IH H) as [-> ->]. split; reflexivity.
  - destruct (IH H) as [-> ->]. split; reflexivity.
Qed.

Lemma go0_B {A} ln lo lsm cur (l r : A) s :
  go 0 ln lo [] lsm cur (B l r :: s) = go 0 (S ln) (S lo) [] (S lsm) cur s.
Proof. reflexivity. Qed.

Lemma go0_noctx {A} (s : list (dres A)) : forall ln lo lsm cur,
  noctx (mm_lines cur) -> Forall (fun m => noctx (mm_lines m)) (go 0 ln lo [] lsm cur s).
Proof.
  induction s as [|d s IH]; intros ln lo lsm cur Hc.
  - repeat constructor. exact Hc.
  - destruct d as [x|x|l r]; [| |rewrite go0_B; apply IH; exact Hc]; cbn [go map app length].
    all: destruct (Nat.leb 0 lsm && Nat.ltb 0 lsm);
      [constructor; [exact Hc|apply IH; reflexivity]|apply IH, noctx_app; [exact Hc|reflexivity]].
Qed.

Lemma make_diff0_noctx {A} (s : list (dres A)) : Forall (fun m => noctx (mm_lines m)) (make_diff 0 s).
Proof.
  unfold make_diff. pose proof (go0_noctx s 1 1 1 (MkMM 0 0 []) eq_refl) as H.
  destruct (go 0 1 1 [] 1 (MkMM 0 0 []) s); cbn [tl]; [constructor|]. inversion H; assumption.
Qed.

(* hunk_at for a mismatch without Context lines (noctx_osd) *)
Definition hunk0_at {A} (a b : list A) (m : mismatch A) : Prop :=
  (exists pa xa, a = pa ++ res_lines (mm_lines m) ++ xa /\ S (length pa) = mm_orig m) /\
  (exists pb xb, b = pb ++ exp_lines (mm_lines m) ++ xb /\ S (length pb) = mm_line m).

Lemma make_diff0_hunks {A} (s : list (dres A)) :
  both_eq s -> Forall (hunk0_at (projL s) (projR s)) (make_diff 0 s).
Proof.
  intros Hbe. eapply Forall_impl; [|apply Forall_and; [apply (hunks_consistent_lemma 0 s Hbe)|apply make_diff0_noctx]].
  intros m [H Hn]. unfold hunk0_at. destruct (noctx_osd _ Hn) as [<- <-]. exact H.
Qed.

Lemma apply_chunks_at {A} (c : chunk A) cs pos (g x a : list A) :
  ch_orig c = pos + length g -> ch_removed c = length x ->
  apply_chunks pos (g ++ x ++ a) (c :: cs) =
    match apply_chunks (ch_orig c + ch_removed c) a cs with Some t => Some (g ++ ch_lines c ++ t) | None => None end.
Proof.
  intros Ho Hr. cbn [apply_chunks].
  destruct (Nat.ltb_spec (ch_orig c) pos) as [H|_]; [lia|].
  replace (ch_orig c - pos) with (length g) by lia. rewrite Hr, app_assoc, <- app_length.
  destruct (Nat.ltb_spec (length ((g ++ x) ++ a)) (length (g ++ x))) as [H|_]; [rewrite app_length in H; lia|].
  rewrite skipn_app, skipn_all, Nat.sub_diag, <- app_assoc, firstn_app, firstn_all, Nat.sub_diag.
  cbn [skipn firstn app]. rewrite app_nil_r. reflexivity.
Qed.

Lemma tiles_applies {A} (pa pb a b : list A) ms : tiles pa pb a b ms ->
  Forall (fun m => noctx (mm_lines m)) ms -> apply_chunks (S (length pa)) a (modified_lines ms) = Some b.
Proof.
  induction 1 as [|pa pb g m ms a b Ho Hl _ IH]; intros Hn; [reflexivity|].
  inversion Hn as [|? ? Hm Hms]; subst. destruct (noctx_osd _ Hm) as [Eo En]. rewrite Eo, En in *.
  cbn [modified_lines map]. rewrite (apply_chunks_at (chunk_of m) _ _ g (res_lines (mm_lines m))).
  - cbn [chunk_of ch_orig ch_removed ch_lines]. rewrite filter_res_length.
    replace (mm_orig m + length (res_lines (mm_lines m))) with (S (length (pa ++ g ++ res_lines (mm_lines m))))
      by (rewrite Ho, !app_length; lia).
    apply IH in Hms. unfold modified_lines in Hms. rewrite Hms. reflexivity.
  - cbn [chunk_of ch_orig]. rewrite Ho, app_length. lia.
  - apply filter_res_length.
Qed.

Lemma apply_reconstructs_lemma {A} (s : list (dres A)) :
  both_eq s ->
  apply_chunks 1 (projL s) (modified_lines (make_diff 0 s)) = Some (projR s).
Proof. intros Hbe. apply (tiles_applies [] []); [apply make_diff_tiles, Hbe|apply make_diff0_noctx]. Qed.

Lemma jscan_spec {A} (ls : list (dline A)) : forall ob oe oc eb ee ec,
  jscan ls ob oe oc eb ee ec =
    ((match length (res_lines ls) with 0 => oe | S k => ob + oc + k end),
     (match length (exp_lines ls) with 0 => ee | S k => eb + ec + k end)).
Proof.
  induction ls as [|[x|x|x] ls IH]; intros ob oe oc eb ee ec; cbn [jscan res_lines exp_lines length].
  - reflexivity.
  - apply IH.
  - rewrite IH. f_equal. destruct (length (exp_lines ls)); lia.
  - rewrite IH. f_equal. destruct (length (res_lines ls)); lia.
Qed.

Lemma json_blocks_ok_lemma {A} (s : list (dres A)) : both_eq s ->
  Forall (jblock_ok (projL s) (projR s)) (json_blocks (make_diff 0 s)).
Proof.
  intros Hbe. apply Forall_map. eapply Forall_impl; [|apply make_diff0_hunks, Hbe].
  intros m [Ha Hb]. unfold jblock_ok, json_block. rewrite jscan_spec.
  cbn [j_original j_expected j_obegin j_ebegin j_oend j_eend].
  split; [exact Ha|split; [exact Hb|split]].
  - destruct (length (res_lines (mm_lines m))); lia.
  - destruct (length (exp_lines (mm_lines m))); lia.
Qed.

Lemma cs_scan_spec {A} (ls : list (dline A)) : forall b c n x,
  In (n, x) (cs_scan ls b c) -> exists k, n = b + c + k /\ nth_error (exp_lines ls) k = Some x.
Proof.
  induction ls as [|[y|y|y] ls IH]; intros b c n x Hin; cbn [cs_scan exp_lines] in *.
  - contradiction.
  - apply IH; exact Hin.
  - destruct Hin as [Hin|Hin].
    + inversion Hin; subst. exists 0. split; [lia|reflexivity].
    + destruct (IH _ _ _ _ Hin) as (k & -> & Hk). exists (S k). split; [lia|exact Hk].
  - apply IH; exact Hin.
Qed.

Lemma checkstyle_lines_ok_lemma {A} (s : list (dres A)) n (msg : A) : both_eq s ->
  In (n, msg) (checkstyle_errors (make_diff 0 s)) ->
  1 <= n /\ nth_error (projR s) (n - 1) = Some msg.
Proof.
  intros Hbe Hin. apply in_concat in Hin. destruct Hin as (l & Hl & Hin).
  apply in_map_iff in Hl. destruct Hl as (m & <- & Hm).
  pose proof (make_diff0_hunks s Hbe) as Hh. rewrite Forall_forall in Hh.
  destruct (Hh m Hm) as [_ (pb & xb & -> & Hl)].
  destruct (cs_scan_spec _ _ _ _ _ Hin) as (k & -> & Hk).
  split; [lia|]. rewrite <- Hl.
  replace (S (length pb) + 0 + k - 1) with (length pb + k) by lia.
  rewrite nth_error_app2 by lia. replace (length pb + k - length pb) with k by lia.
  rewrite nth_error_app1; [exact Hk|]. apply nth_error_Some. rewrite Hk. discriminate.
Qed.

Definition script {A} (a b : list A) (s : list (dres A)) : Prop :=
  projL s = a /\ projR s = b /\ both_eq s.

Lemma script_nil {A} : @script A [] [] [].
Proof. repeat split. intros ? ? []. Qed.
Lemma script_L {A} x {a b : list A} {s} : script a b s -> script (x :: a) b (L x :: s).
Proof. intros (<- & <- & H). repeat split. apply both_eq_intro; [discriminate|exact H]. Qed.
Lemma script_R {A} x {a b : list A} {s} : script a b s -> script a (x :: b) (R x :: s).
Proof. intros (<- & <- & H). repeat split. apply both_eq_intro; [discriminate|exact H]. Qed.
Lemma script_B {A} x {a b : list A} {s} : script a b s -> script (x :: a) (x :: b) (B x x :: s).
Proof. intros (<- & <- & H). repeat split. apply both_eq_intro; [intros ? ? [= <- <-]; reflexivity|exact H]. Qed.

Lemma script_app {A} (a b a' b' : list A) s s' :
  script a b s -> script a' b' s' -> script (a ++ a') (b ++ b') (s ++ s').
Proof.
  intros (<- & <- & H) (<- & <- & H'). repeat split; [apply projL_app|apply projR_app|apply both_eq_app; assumption].
Qed.

Lemma script_rev {A} (a b : list A) s : script (rev a) (rev b) s -> script a b (rev s).
Proof.
  intros (HL & HR & H). repeat split.
  - rewrite projL_rev, HL. apply rev_involutive.
  - rewrite projR_rev, HR. apply rev_involutive.
  - intros l r Hin. apply H, in_rev, Hin.
Qed.

Lemma proj_zipB {A} (a b : list A) : length a = length b -> projL (zipB a b) = a /\ projR (zipB a b) = b.
Proof.
  revert b; induction a as [|x a IH]; intros [|y b] H; try discriminate H; [split; reflexivity|].
  injection H as H. destruct (IH b H) as [EL ER]. unfold zipB in *.
  cbn [combine map fst snd projL projR]. rewrite EL, ER. split; reflexivity.
Qed.

Lemma zipB_all_both {A} (a b : list A) : forallb is_both (zipB a b) = true.
Proof. unfold zipB. revert b; induction a as [|x a IH]; intros [|y b]; cbn; auto. Qed.
Lemma script_zipB {A} (p : list A) : script p p (zipB p p).
Proof.
  induction p as [|x p IH]; [apply script_nil|exact (script_B x IH)].
Qed.

Section IterProofs.
Variable A : Type.
Variable eqb : A -> A -> bool.

Lemma backtrack_cons_cons t (l : A) li r ri :
  backtrack t (l :: li) (r :: ri) =
    if Nat.eqb (tget t (S (length li)) (S (length ri))) (tget t (S (length li)) (length ri))
    then R r :: backtrack t (l :: li) ri
    else if Nat.eqb (tget t (S (length li)) (S (length ri))) (tget t (length li) (S (length ri)))
         then L l :: backtrack t li (r :: ri)
         else B l r :: backtrack t li ri.
Proof.
  cbn [backtrack length]. rewrite !Nat.sub_succ, !Nat.sub_0_r. reflexivity.
Qed.

Lemma backtrack_nil_cons t (r : A) ri : backtrack t [] (r :: ri) = R r :: backtrack t [] ri.
Proof. reflexivity. Qed.
Lemma backtrack_cons_nil t (l : A) li : backtrack t (l :: li) [] = L l :: backtrack t li [].
Proof. reflexivity. Qed.

Lemma common_prefix_len_le (a b : list A) : common_prefix_len eqb a b <= Nat.min (length a) (length b).
Proof. revert b; induction a as [|x a IH]; intros [|y b]; cbn; try lia. destruct (eqb x y); [specialize (IH b)|]; lia. Qed.

(* the LCS table: each row with its column 0 in front satisfies the defining equation *)
Lemma next_row_nth l : forall rs prev v0 j,
  length prev = S (length rs) -> j < length rs ->
  nth (S j) (v0 :: next_row eqb l rs prev v0) 0 =
    (if eqb l (nth j rs l) then S (nth j prev 0)
     else Nat.max (nth (S j) prev 0) (nth j (v0 :: next_row eqb l rs prev v0) 0)).
Proof.
  induction rs as [|r rs IH]; intros prev v0 j Hlen Hj; cbn [length] in *; [lia|].
  destruct prev as [|p0 [|p1 prev]]; cbn [length] in Hlen; try lia.
  cbn [next_row]. destruct j as [|j]; [reflexivity|].
  cbn [nth]. apply IH; cbn [length]; lia.
Qed.

Lemma next_row_length l : forall rs prev v0,
  length prev = S (length rs) -> length (next_row eqb l rs prev v0) = length rs.
Proof.
  induction rs as [|r rs IH]; intros prev v0 Hlen; cbn [length] in *.
  - destruct prev; reflexivity.
  - destruct prev as [|p0 [|p1 prev]]; cbn [length] in Hlen; try lia.
    cbn [next_row length]. f_equal. apply IH. cbn [length]. lia.
Qed.

Lemma rows_head ls rs prev : nth 0 (rows eqb ls rs prev) [] = prev.
Proof. destruct ls; reflexivity. Qed.

Lemma rows_eq rs d d' : forall ls prev i j, length prev = S (length rs) -> i < length ls -> j < length rs ->
  nth (S j) (nth (S i) (rows eqb ls rs prev) []) 0 =
    (if eqb (nth i ls d) (nth j rs d') then S (nth j (nth i (rows eqb ls rs prev) []) 0)
     else Nat.max (nth (S j) (nth i (rows eqb ls rs prev) []) 0) (nth j (nth (S i) (rows eqb ls rs prev) []) 0)).
Proof.
  induction ls as [|l ls IH]; intros prev i j Hp Hi Hj; cbn [length] in Hi; [lia|].
  cbn [rows]. destruct i as [|i]; cbn [nth].
  - rewrite rows_head. unfold row_after. rewrite next_row_nth, (nth_indep rs _ d' Hj) by assumption. reflexivity.
  - apply IH; [|lia|exact Hj]. unfold row_after. cbn [length]. f_equal. apply next_row_length, Hp.
Qed.

Lemma table_eq ls rs i j d d' : i < length ls -> j < length rs ->
  tget (table eqb ls rs) (S i) (S j) =
    (if eqb (nth i ls d) (nth j rs d') then S (tget (table eqb ls rs) i j)
     else Nat.max (tget (table eqb ls rs) i (S j)) (tget (table eqb ls rs) (S i) j)).
Proof. intros Hi Hj. apply rows_eq; [apply repeat_length|exact Hi|exact Hj]. Qed.

Hypothesis eqb_sound : forall x y, eqb x y = true -> x = y.

Lemma common_prefix_len_firstn (a b : list A) :
  firstn (common_prefix_len eqb a b) a = firstn (common_prefix_len eqb a b) b.
Proof.
  revert b; induction a as [|x a IH]; intros [|y b]; cbn; try reflexivity.
  destruct (eqb x y) eqn:E; [|reflexivity]. cbn. rewrite (eqb_sound _ _ E), IH. reflexivity.
Qed.

(* li, ri are the reversed prefixes of the two sequences that are still to be walked.  A B entry is
   pushed only when the table entry differs from both neighbours, which the defining equation allows
   only for equal elements *)
Lemma backtrack_script : forall li ri la ra : list A,
  script li ri (backtrack (table eqb (rev li ++ la) (rev ri ++ ra)) li ri).
Proof.
  assert (Hc : forall (x : A) xs ys, rev (x :: xs) ++ ys = rev xs ++ x :: ys) by (intros; apply snoc_app).
  induction li as [|l li IHl]; induction ri as [|r ri IHr]; intros la ra.
  - apply script_nil.
  - rewrite backtrack_nil_cons, Hc. apply script_R, IHr.
  - rewrite backtrack_cons_nil, Hc. apply script_L, (IHl []).
  - rewrite backtrack_cons_cons.
    destruct (Nat.eqb _ _) eqn:E1; [rewrite (Hc r); apply script_R, IHr|].
    destruct (Nat.eqb _ (tget _ (length li) _)) eqn:E2; [rewrite (Hc l); apply script_L, (IHl (r :: ri))|].
    rewrite !Hc in *. apply Nat.eqb_neq in E1, E2.
    pose proof (table_eq (rev li ++ l :: la) (rev ri ++ r :: ra) (length li) (length ri) l r) as Ht.
    rewrite !nth_rev_middle, !app_length, !rev_length in Ht. cbn [length] in Ht.
    destruct (eqb l r) eqn:E; [|lia]. rewrite <- (eqb_sound _ _ E). apply script_B, IHl.
Qed.

Lemma diff_iter_parts (a b : list A) : exists p ma mb t,
  a = p ++ ma ++ t /\ b = p ++ mb ++ t /\
  diff_iter eqb a b = zipB p p ++ rev (backtrack (table eqb ma mb) (rev ma) (rev mb)) ++ zipB t t.
Proof.
  unfold diff_iter. cbv zeta.
  set (lead := common_prefix_len eqb a b).
  set (n := Nat.min (length a) (length b) - lead).
  set (trail := common_prefix_len eqb (firstn n (rev a)) (firstn n (rev b))).
  assert (Hl : lead <= Nat.min (length a) (length b)) by apply common_prefix_len_le.
  assert (Ht : trail <= n).
  { etransitivity; [apply common_prefix_len_le|]. rewrite firstn_length. lia. }
  assert (E1 : firstn lead a = firstn lead b) by apply common_prefix_len_firstn.
  assert (E2 : skipn (lead + (length a - lead - trail)) a = skipn (lead + (length b - lead - trail)) b).
  { rewrite !skipn_tail by lia. f_equal.
    pose proof (common_prefix_len_firstn (firstn n (rev a)) (firstn n (rev b))) as H. fold trail in H.
    rewrite !firstn_firstn, Nat.min_l in H by exact Ht. exact H. }
  rewrite <- E1, <- E2. eexists _, _, _, _. split; [|split; [|reflexivity]].
  - symmetry. apply split3.
  - rewrite E1, E2. symmetry. apply split3.
Qed.

Lemma diff_iter_script (a b : list A) : script a b (diff_iter eqb a b).
Proof.
  destruct (diff_iter_parts a b) as (p & ma & mb & t & -> & -> & ->).
  apply script_app; [apply script_zipB|]. apply script_app; [|apply script_zipB].
  apply script_rev. pose proof (backtrack_script (rev ma) (rev mb) [] []) as H.
  rewrite !rev_involutive, !app_nil_r in H. exact H.
Qed.

Hypothesis eqb_refl : forall x, eqb x x = true.
Lemma common_prefix_len_refl (a : list A) : common_prefix_len eqb a a = length a.
Proof. induction a as [|x a IH]; cbn; [reflexivity|]. rewrite eqb_refl, IH. reflexivity. Qed.

Lemma diff_iter_same (a : list A) : forallb is_both (diff_iter eqb a a) = true.
Proof.
  unfold diff_iter. rewrite common_prefix_len_refl.
  assert (E : forall t, length a - length a - t = 0) by (intros; lia). rewrite !E.
  cbn [firstn rev backtrack app]. rewrite forallb_app, !zipB_all_both. reflexivity.
Qed.
End IterProofs.

Lemma diff_lines_valid (a b : text) :
  projL (diff_lines a b) = dlines a /\ projR (diff_lines a b) = dlines b /\ both_eq (diff_lines a b).
Proof.
  change (script (dlines a) (dlines b) (diff_lines a b)). unfold dlines, diff_lines.
  apply script_app; [apply diff_iter_script, eqb_text_spec|].
  (* the entry for the final newlines: B, L, R or none *)
  destruct (ends_with_lf a), (ends_with_lf b).
  - exact (script_zipB [[]]).
  - exact (script_L [] script_nil).
  - exact (script_R [] script_nil).
  - exact script_nil.
Qed.

Lemma apply_reconstructs_text_lemma (a b : text) :
  apply_chunks 1 (dlines a) (impl_modified_lines a b) = Some (dlines b).
Proof. destruct (diff_lines_valid a b) as (<- & <- & Hbe). apply apply_reconstructs_lemma, Hbe. Qed.

Lemma empty_iff_lemma ctx (a b : text) :
  make_diff ctx (diff_lines a b) = [] <->
  (str_lines a = str_lines b /\ ends_with_lf a = ends_with_lf b).
Proof.
  rewrite make_diff_nil_iff. unfold diff_lines. rewrite forallb_app. split.
  - intros H. apply andb_true_iff in H. destruct H as [H1 H2].
    destruct (diff_iter_script _ eqb_text (fun x y => proj1 (eqb_text_spec x y)) (str_lines a) (str_lines b)) as (HL & HR & Hbe).
    pose proof (all_both_proj _ H1 Hbe) as E. rewrite HL, HR in E. split; [exact E|].
    destruct (ends_with_lf a), (ends_with_lf b); cbn in H2; try discriminate; reflexivity.
  - intros [E1 E2]. rewrite E1, E2, diff_iter_same by exact eqb_text_refl.
    destruct (ends_with_lf b); reflexivity.
Qed.

Local Open Scope N_scope.
Lemma xml_escape_cons c t : xml_escape (c :: t) = xml_escape_char c ++ xml_escape t.
Proof. reflexivity. Qed.

(* 60 '<', 62 '>', 34 the double quote, 39 the apostrophe, 38 '&' *)
Lemma xml_escape_char_cases c :
  c = 60 \/ c = 62 \/ c = 34 \/ c = 39 \/ c = 38 \/
  (xml_escape_char c = [c] /\ (c =? 38) = false /\ (c =? 60) = false /\ (c =? 34) = false).
Proof.
  unfold xml_escape_char.
  destruct (N.eqb_spec c 60) as [E|_]; [left; exact E|right].
  destruct (N.eqb_spec c 62) as [E|_]; [left; exact E|right].
  destruct (N.eqb_spec c 34) as [E|_]; [left; exact E|right].
  destruct (N.eqb_spec c 39) as [E|_]; [left; exact E|right].
  destruct (N.eqb_spec c 38) as [E|_]; [left; exact E|right]. repeat split.
Qed.

(* a character other than '&' is passed over.  c =? 38 is decided by the six low bits of c: going through
   them lets evaluation close every case but c = 38 without unfolding, at a symbolic character, the entity
   tables of xml_unescape and wf_attr, which rewriting with the hypothesis would have to type-check *)
Lemma not_amp (c : char) (t : text) : (c =? 38) = false ->
  xml_unescape (c :: t) = c :: xml_unescape t /\
  wf_attr (c :: t) = (if (c =? 60) || (c =? 34) then false else wf_attr t).
Proof.
  intros E. destruct c as [|p]; [split; reflexivity|].
  do 6 (destruct p as [p|p|]; try (split; reflexivity)). discriminate E.
Qed.

Lemma xml_unescape_char c r : xml_unescape (xml_escape_char c ++ r) = c :: xml_unescape r.
Proof.
  destruct (xml_escape_char_cases c) as [->|[->|[->|[->|[->|(-> & E & _)]]]]]; try reflexivity.
  apply not_amp, E.
Qed.

Lemma xml_unescape_escape t : xml_unescape (xml_escape t) = t.
Proof.
  induction t as [|c t IH]; [reflexivity|]. rewrite xml_escape_cons, xml_unescape_char, IH. reflexivity.
Qed.

Lemma wf_attr_char c r : wf_attr (xml_escape_char c ++ r) = wf_attr r.
Proof.
  destruct (xml_escape_char_cases c) as [->|[->|[->|[->|[->|(-> & E38 & E60 & E34)]]]]]; try reflexivity.
  cbn [app]. rewrite (proj2 (not_amp c r E38)), E60, E34. reflexivity.
Qed.

Lemma xml_escape_wf t : wf_attr (xml_escape t) = true.
Proof. induction t as [|c t IH]; [reflexivity|]. rewrite xml_escape_cons, wf_attr_char. exact IH. Qed.

Lemma xml_escape_forbidden t : existsb xml_forbidden (xml_escape t) = existsb xml_forbidden t.
Proof.
  induction t as [|c t IH]; [reflexivity|]. rewrite xml_escape_cons, existsb_app, IH. cbn [existsb]. f_equal.
  destruct (xml_escape_char_cases c) as [->|[->|[->|[->|[->|(-> & _)]]]]]; try reflexivity.
  cbn [existsb]. apply orb_false_r.
Qed.

Definition all_dec (t : text) : Prop := Forall (fun c => is_dec_digit c = true) t.

Lemma digits_val_app s : forall a t,
  digits_val a (s ++ t) = match digits_val a s with Some v => digits_val v t | None => None end.
Proof.
  induction s as [|c s IH]; intros a t; cbn [app digits_val].
  - reflexivity.
  - destruct (is_dec_digit c); [apply IH|reflexivity].
Qed.

Lemma dec_digit_of_mod n : is_dec_digit (48 + n mod 10) = true.
Proof.
  pose proof (N.mod_upper_bound n 10 ltac:(lia)) as Hm.
  (* lia does not take mod: n mod 10 becomes a variable *)
  generalize dependent (n mod 10). intros r Hr.
  unfold is_dec_digit. apply andb_true_iff. split; apply N.leb_le; lia.
Qed.

Lemma le_digits_val fuel : forall n, n < 2 ^ N.of_nat fuel ->
  digits_val 0 (rev (le_digits fuel n)) = Some n.
Proof.
  induction fuel as [|fuel IH]; intros n Hn.
  - cbn in Hn. assert (n = 0) as -> by lia. reflexivity.
  - rewrite Nat2N.inj_succ, N.pow_succ_r' in Hn.
    cbn [le_digits rev]. rewrite digits_val_app.
    assert (Hd : n / 10 * 10 + (48 + n mod 10 - 48) = n).
    { pose proof (N.div_mod n 10 ltac:(lia)) as Hdm. pose proof (N.mod_upper_bound n 10 ltac:(lia)) as Hm.
      (* nor / : both become variables *)
      generalize dependent (n mod 10). generalize dependent (n / 10). intros q r Hr1 Hr2. lia. }
    destruct (N.eqb_spec (n / 10) 0) as [E|E].
    + cbn [rev digits_val]. rewrite dec_digit_of_mod. f_equal. rewrite <- E. exact Hd.
    + rewrite IH; [cbn [digits_val]; rewrite dec_digit_of_mod, Hd; reflexivity|].
      assert (n / 10 <= n / 2) as Hle by (apply N.div_le_compat_l; lia).
      assert (n / 2 < 2 ^ N.of_nat fuel) as Hlt by (apply N.div_lt_upper_bound; lia).
      lia.
Qed.

Lemma size_nat_bound n : n < 2 ^ N.of_nat (N.size_nat n).
Proof.
  destruct n as [|q]; cbn [N.size_nat].
  - cbn. lia.
  - induction q as [q IH|q IH|]; cbn [Pos.size_nat].
    + rewrite Nat2N.inj_succ, N.pow_succ_r'. lia.
    + rewrite Nat2N.inj_succ, N.pow_succ_r'. lia.
    + cbn. lia.
Qed.

Lemma dec_val n : digits_val 0 (dec n) = Some n.
Proof.
  unfold dec. apply le_digits_val.
  pose proof (size_nat_bound n) as H. rewrite Nat2N.inj_succ, N.pow_succ_r'. lia.
Qed.

Lemma le_digits_all fuel : forall n, all_dec (le_digits fuel n).
Proof.
  induction fuel as [|fuel IH]; intros n; cbn [le_digits]; constructor.
  - apply dec_digit_of_mod.
  - destruct (n / 10 =? 0); [constructor|apply IH].
Qed.

Lemma dec_all n : all_dec (dec n).
Proof. unfold dec, all_dec. apply Forall_rev. apply le_digits_all. Qed.

Lemma dec_nonempty n : dec n <> [].
Proof.
  unfold dec. cbn [le_digits rev]. intros H. apply app_eq_nil in H. destruct H as [_ H]. discriminate H.
Qed.

Lemma dec_digit_cases c : is_dec_digit c = true ->
  c = 48 \/ c = 49 \/ c = 50 \/ c = 51 \/ c = 52 \/ c = 53 \/ c = 54 \/ c = 55 \/ c = 56 \/ c = 57.
Proof.
  unfold is_dec_digit. rewrite andb_true_iff, !N.leb_le. lia.
Qed.

Lemma dec_digit_not_ws c : is_dec_digit c = true -> is_whitespace c = false.
Proof.
  intros H. apply dec_digit_cases in H.
  destruct H as [->|[->|[->|[->|[->|[->|[->|[->|[->| ->]]]]]]]]]; reflexivity.
Qed.

Lemma dec_digit_not_lf c : is_dec_digit c = true -> c <> LF.
Proof. intros H ->. discriminate H. Qed.

Lemma dec_digit_not_plus c : is_dec_digit c = true -> (c =? 43) = false.
Proof.
  intros H. apply dec_digit_cases in H.
  destruct H as [->|[->|[->|[->|[->|[->|[->|[->|[->| ->]]]]]]]]]; reflexivity.
Qed.

Lemma parse_uint_dec_bounded max n : parse_uint max (dec n) = bounded max (Some n).
Proof.
  pose proof (dec_val n) as Hv. pose proof (dec_all n) as Ha. pose proof (dec_nonempty n) as Hne.
  destruct (dec n) as [|c rest]; [contradiction|].
  unfold parse_uint. inversion Ha as [|? ? Hc _]; subst.
  rewrite (dec_digit_not_plus c Hc), Hv. reflexivity.
Qed.

Lemma parse_uint_dec max n : n <= max -> parse_uint max (dec n) = Some n.
Proof.
  intros Hn. rewrite parse_uint_dec_bounded. cbn [bounded]. destruct (N.leb_spec n max); [reflexivity|lia].
Qed.

Lemma bounded_some max o v : bounded max o = Some v -> v <= max.
Proof.
  destruct o as [w|]; cbn [bounded]; [|discriminate].
  destruct (N.leb_spec w max) as [Hle|_]; [|discriminate]. intros H; inversion H; subst. exact Hle.
Qed.

Lemma parse_uint_bound max s v : parse_uint max s = Some v -> v <= max.
Proof.
  unfold parse_uint. destruct s as [|c rest]; [discriminate|].
  destruct (c =? 43).
  - destruct rest as [|d rest']; [discriminate|]. apply bounded_some.
  - apply bounded_some.
Qed.

Definition no_ws (w : text) : Prop := Forall (fun c => is_whitespace c = false) w.

Lemma split_ws_word w : forall cur s t, no_ws w -> is_whitespace s = true -> (cur <> [] \/ w <> []) ->
  split_ws_aux cur (w ++ s :: t) = (rev cur ++ w) :: split_ws_aux [] t.
Proof.
  intros cur s t Hw Hs. revert cur. induction Hw as [|c w Hc _ IH]; intros cur Hne; cbn [app split_ws_aux].
  - rewrite Hs. destruct cur as [|x cur]; [destruct Hne as [Hne|Hne]; contradiction|].
    rewrite app_nil_r. reflexivity.
  - rewrite Hc, IH by (left; discriminate). cbn [rev]. rewrite <- app_assoc. reflexivity.
Qed.

Lemma split_ws_last w : forall cur, no_ws w -> (cur <> [] \/ w <> []) ->
  split_ws_aux cur w = [rev cur ++ w].
Proof.
  intros cur Hw. revert cur. induction Hw as [|c w Hc _ IH]; intros cur Hne; cbn [split_ws_aux].
  - destruct cur as [|x cur]; [destruct Hne as [Hne|Hne]; contradiction|].
    rewrite app_nil_r. reflexivity.
  - rewrite Hc, IH by (left; discriminate). cbn [rev]. rewrite <- app_assoc. reflexivity.
Qed.

Lemma split_ws_three u v w : no_ws u -> u <> [] -> no_ws v -> v <> [] -> no_ws w -> w <> [] ->
  split_whitespace (u ++ [SP] ++ v ++ [SP] ++ w) = [u; v; w].
Proof.
  intros Hu Hu' Hv Hv' Hw Hw'. unfold split_whitespace. cbn [app].
  rewrite !split_ws_word, split_ws_last by (assumption || reflexivity || (right; assumption)). reflexivity.
Qed.

Lemma dec_no_ws n : no_ws (dec n).
Proof. eapply Forall_impl; [|apply dec_all]. exact dec_digit_not_ws. Qed.

Definition in_range (c : mchunk) : bool :=
  (mc_orig c <=? U32_MAX) && (mc_removed c <=? U32_MAX) && (N.of_nat (length (mc_lines c)) <=? USIZE_MAX).

Lemma wf_chunk_iff c : wf_chunk c <-> in_range c = true /\ Forall nolf (mc_lines c).
Proof. unfold wf_chunk, in_range. rewrite !andb_true_iff, !N.leb_le. tauto. Qed.

Lemma wf_in_range cs : WF cs -> forallb in_range cs = true.
Proof.
  intros H. apply forallb_forall. intros c Hc. eapply Forall_forall in H; [|exact Hc]. apply wf_chunk_iff, H.
Qed.

Lemma parse_header_print c :
  parse_header (print_header c) =
    if in_range c then Some (mc_orig c, mc_removed c, N.of_nat (length (mc_lines c))) else None.
Proof.
  unfold parse_header, print_header, in_range.
  rewrite split_ws_three by (apply dec_no_ws || apply dec_nonempty).
  rewrite !parse_uint_dec_bounded. cbn [bounded].
  destruct (mc_orig c <=? U32_MAX); [|reflexivity]. destruct (mc_removed c <=? U32_MAX); [|reflexivity].
  destruct (_ <=? USIZE_MAX); reflexivity.
Qed.

Lemma parse_header_bound h a b c : parse_header h = Some (a, b, c) ->
  a <= U32_MAX /\ b <= U32_MAX /\ c <= USIZE_MAX.
Proof.
  unfold parse_header. destruct (split_whitespace h) as [|o [|r [|n rest]]]; try discriminate.
  destruct (parse_uint U32_MAX o) as [x|] eqn:Ex; [|discriminate].
  destruct (parse_uint U32_MAX r) as [y|] eqn:Ey; [|discriminate].
  destruct (parse_uint USIZE_MAX n) as [z|] eqn:Ez; [|discriminate].
  intros H; inversion H; subst. repeat split; eapply parse_uint_bound; eassumption.
Qed.

Lemma print_header_chars c x : In x (print_header c) -> is_dec_digit x = true \/ x = SP.
Proof.
  assert (Hd : forall n, In x (dec n) -> is_dec_digit x = true) by (intros n; apply (proj1 (Forall_forall _ _) (dec_all n))).
  unfold print_header. rewrite !in_app_iff. cbn [In].
  (* number, blank, number, blank, number *)
  intros [H|[[<-|[]]|[H|[[<-|[]]|H]]]]; [left|right|left|right|left]; eauto.
Qed.

Lemma print_header_nolf c : nolf (print_header c).
Proof.
  intros Hin. apply print_header_chars in Hin. destruct Hin as [H|H]; [exact (dec_digit_not_lf LF H eq_refl)|discriminate H].
Qed.

Lemma print_header_no_cr_end c : no_cr_end (print_header c).
Proof.
  intros l' E. assert (Hin : In CR (print_header c)) by (rewrite E; apply in_or_app; right; left; reflexivity).
  apply print_header_chars in Hin. destruct Hin as [H|H]; discriminate H.
Qed.

Lemma nolf_is_lf l : nolf l -> Forall (fun c => is_lf c = false) l.
Proof.
  intros H. apply Forall_forall. intros c Hc. apply is_lf_false. intros ->. apply H. exact Hc.
Qed.

Lemma nolf_rev cur : nolf cur -> nolf (rev cur).
Proof. intros H Hin. apply H, in_rev, Hin. Qed.

Lemma split_term_line l : forall cur t, nolf l ->
  split_term_aux cur (l ++ LF :: t) = (rev cur ++ l) :: split_term_aux [] t.
Proof.
  intros cur t Hl. apply nolf_is_lf in Hl. revert cur.
  induction Hl as [|c l Hc _ IH]; intros cur; cbn [app split_term_aux].
  - rewrite app_nil_r. reflexivity.
  - rewrite Hc, IH. cbn [rev]. rewrite <- app_assoc. reflexivity.
Qed.

Lemma split_term_unlines ls : forall t, Forall nolf ls ->
  split_terminator (unlines ls ++ t) = ls ++ split_terminator t.
Proof.
  unfold split_terminator, unlines.
  induction ls as [|l ls IH]; intros t Hls; [reflexivity|].
  inversion Hls as [|? ? Hl Hls']; subst.
  cbn [map concat]. rewrite <- !app_assoc. cbn [app].
  rewrite split_term_line by exact Hl. cbn [rev app]. rewrite IH by exact Hls'. reflexivity.
Qed.

Lemma split_term_aux_nolf t : forall cur, nolf cur -> Forall nolf (split_term_aux cur t).
Proof.
  induction t as [|c t IH]; intros cur Hcur; cbn [split_term_aux].
  - destruct cur; repeat constructor. apply nolf_rev, Hcur.
  - destruct (is_lf c) eqn:Ec.
    + constructor; [apply nolf_rev, Hcur|apply IH; intros []].
    + apply IH. intros [->|Hin]; [discriminate Ec|exact (Hcur Hin)].
Qed.

Lemma split_terminator_nolf t : Forall nolf (split_terminator t).
Proof. apply split_term_aux_nolf. intros []. Qed.

Definition lines_all (P : text -> Prop) (cs : list mchunk) : Prop := Forall (fun c => Forall P (mc_lines c)) cs.

Lemma wf_lines_nolf cs : WF cs -> lines_all nolf cs.
Proof. intros H. eapply Forall_impl; [|exact H]. intros c Hc. apply Hc. Qed.

Definition flat (cs : list mchunk) : list text :=
  concat (map (fun c => print_header c :: mc_lines c) cs).

Lemma print_modified_cons c cs : print_modified (c :: cs) = print_chunk c ++ print_modified cs.
Proof. reflexivity. Qed.

Lemma flat_cons c cs : flat (c :: cs) = print_header c :: mc_lines c ++ flat cs.
Proof. reflexivity. Qed.

Lemma print_modified_unlines cs : print_modified cs = unlines (flat cs).
Proof.
  induction cs as [|c cs IH]; [reflexivity|].
  rewrite print_modified_cons, IH, flat_cons. unfold print_chunk, unlines.
  cbn [map concat]. rewrite map_app, concat_app, <- !app_assoc. reflexivity.
Qed.

Lemma flat_Forall (P : text -> Prop) cs :
  (forall c, P (print_header c)) -> lines_all P cs -> Forall P (flat cs).
Proof.
  intros Hh H. induction H as [|c cs Hc _ IH]; [constructor|].
  rewrite flat_cons. constructor; [apply Hh|]. apply Forall_app. split; assumption.
Qed.

Lemma split_term_print cs : lines_all nolf cs ->
  split_terminator (print_modified cs) = flat cs.
Proof.
  intros H. rewrite print_modified_unlines, <- (app_nil_r (unlines _)), split_term_unlines.
  - apply app_nil_r.
  - apply flat_Forall; [exact print_header_nolf|exact H].
Qed.

Lemma take_lines_spec ls : forall n, take_lines n ls = (firstn (N.to_nat n) ls, skipn (N.to_nat n) ls).
Proof.
  induction ls as [|l ls IH]; intros n; cbn [take_lines]; [destruct (N.to_nat n); reflexivity|].
  destruct (N.eqb_spec n 0) as [->|Hn]; [reflexivity|].
  rewrite IH. replace (N.to_nat n) with (S (N.to_nat (N.pred n))) by lia. reflexivity.
Qed.

Lemma take_lines_exact a b : take_lines (N.of_nat (length a)) (a ++ b) = (a, b).
Proof.
  rewrite take_lines_spec, Nat2N.id, firstn_app, skipn_app, firstn_all, skipn_all, Nat.sub_diag.
  cbn [firstn skipn app]. rewrite app_nil_r. reflexivity.
Qed.

Lemma parse_loop_step f h rest :
  (forall acc, parse_loop (S f) (h :: rest) acc = PErr) \/
  exists o r a b, parse_header h = Some (o, r, N.of_nat (length a)) /\ rest = a ++ b /\
    forall acc, parse_loop (S f) (h :: rest) acc = parse_loop f b (acc ++ [MkMC o r a]).
Proof.
  cbn [parse_loop]. destruct (parse_header h) as [[[o r] n]|]; [|left; reflexivity].
  rewrite take_lines_spec.
  destruct (N.eqb_spec (N.of_nat (length (firstn (N.to_nat n) rest))) n) as [E|_]; [right|left; reflexivity].
  eexists o, r, _, _. split; [rewrite E; reflexivity|]. split; [symmetry; apply firstn_skipn|reflexivity].
Qed.

Lemma parse_loop_acc f : forall ls acc,
  parse_loop f ls acc = match parse_loop f ls [] with POk cs => POk (acc ++ cs) | e => e end.
Proof.
  induction f as [|f IH]; intros ls acc;
    (destruct ls as [|h rest]; [cbn [parse_loop]; rewrite app_nil_r; reflexivity|]); [reflexivity|].
  destruct (parse_loop_step f h rest) as [E|(o & r & a & b & _ & _ & E)]; rewrite !E; [reflexivity|].
  rewrite (IH b (acc ++ _)), (IH b ([] ++ _)).
  destruct (parse_loop f b []) as [cs| |]; [|reflexivity|reflexivity].
  rewrite <- app_assoc. reflexivity.
Qed.

Lemma parse_loop_flat cs : forall f acc, (length (flat cs) <= f)%nat ->
  parse_loop f (flat cs) acc = if forallb in_range cs then POk (acc ++ cs) else PErr.
Proof.
  induction cs as [|c cs IH]; intros f acc Hf.
  - rewrite app_nil_r. destruct f; reflexivity.
  - rewrite flat_cons in *. cbn [length] in Hf. rewrite app_length in Hf.
    destruct f as [|f]; [lia|]. cbn [parse_loop forallb]. rewrite parse_header_print.
    destruct (in_range c); [|reflexivity]. cbn [andb].
    rewrite take_lines_exact, N.eqb_refl, IH by lia.
    rewrite <- app_assoc. destruct c; reflexivity.
Qed.

Lemma parse_lines_flat cs : parse_lines_res (flat cs) = if forallb in_range cs then POk cs else PErr.
Proof. unfold parse_lines_res. apply parse_loop_flat. lia. Qed.

(* a round that does not fail consumes at least the header line *)
Lemma parse_loop_total f : forall ls acc, (length ls <= f)%nat -> parse_loop f ls acc <> PDiverge.
Proof.
  induction f as [|f IH]; intros ls acc Hf; (destruct ls as [|h rest]; [discriminate|]); cbn [length] in Hf; [lia|].
  destruct (parse_loop_step f h rest) as [E|(o & r & a & b & _ & -> & E)]; rewrite E; [discriminate|].
  apply IH. rewrite app_length in Hf. lia.
Qed.

Lemma parse_total_lemma t : parse_modified_res t <> PDiverge /\ parse_modified_pre_res t <> PDiverge.
Proof. split; apply parse_loop_total; lia. Qed.

Lemma parse_loop_wf f : forall ls acc cs, Forall nolf ls -> WF acc ->
  parse_loop f ls acc = POk cs -> WF cs.
Proof.
  induction f as [|f IH]; intros ls acc cs Hls Hacc H;
    (destruct ls as [|h rest]; [inversion H; subst; exact Hacc|]); [discriminate|].
  destruct (parse_loop_step f h rest) as [E|(o & r & a & b & Eh & -> & E)]; rewrite E in H; [discriminate|].
  inversion Hls as [|? ? _ Hrest]; subst. apply Forall_app in Hrest. destruct Hrest as [Ha Hb].
  apply parse_header_bound in Eh. destruct Eh as (Ho & Hr & Hn).
  eapply IH; [exact Hb| |exact H].
  apply Forall_app. split; [exact Hacc|]. repeat constructor; assumption.
Qed.

Lemma parse_modified_wf t cs : parse_modified t = Some cs -> WF cs.
Proof.
  unfold parse_modified, parse_modified_res, parse_lines_res, opt_of_pres. intros H.
  destruct (parse_loop _ _ _) as [cs'| |] eqn:E; try discriminate. inversion H; subst.
  eapply parse_loop_wf; [apply split_terminator_nolf|constructor|exact E].
Qed.

Lemma parse_print cs : lines_all nolf cs ->
  parse_modified (print_modified cs) = if forallb in_range cs then Some cs else None.
Proof.
  intros H. unfold parse_modified, parse_modified_res.
  rewrite split_term_print, parse_lines_flat by exact H. destruct (forallb in_range cs); reflexivity.
Qed.

Lemma print_parse_roundtrip_lemma cs : WF cs -> parse_modified (print_modified cs) = Some cs.
Proof. intros H. rewrite parse_print, wf_in_range by (exact H || apply wf_lines_nolf, H). reflexivity. Qed.

Lemma print_parse_roundtrip_iff_lemma cs : parse_modified (print_modified cs) = Some cs <-> WF cs.
Proof. split; [apply parse_modified_wf|apply print_parse_roundtrip_lemma]. Qed.

Lemma print_parse_roundtrip_wf_necessary_lemma cs : parse_modified (print_modified cs) = Some cs -> WF cs.
Proof. apply parse_modified_wf. Qed.

Lemma parse_print_parse_lemma t cs : parse_modified t = Some cs ->
  WF cs /\ parse_modified (print_modified cs) = Some cs.
Proof.
  intros H. pose proof (parse_modified_wf t cs H) as Hwf. split; [exact Hwf|].
  apply print_parse_roundtrip_lemma. exact Hwf.
Qed.

Lemma print_injective_lemma cs cs' : WF cs -> WF cs' -> print_modified cs = print_modified cs' -> cs = cs'.
Proof.
  intros H H' E. apply print_parse_roundtrip_lemma in H. apply print_parse_roundtrip_lemma in H'.
  rewrite E in H. rewrite H in H'. inversion H'. reflexivity.
Qed.

Lemma print_of_parse_of_print_lemma cs cs' : lines_all nolf cs ->
  parse_modified (print_modified cs) = Some cs' -> print_modified cs' = print_modified cs.
Proof.
  intros Hl H. rewrite parse_print in H by exact Hl. destruct (forallb in_range cs); inversion H. reflexivity.
Qed.

(* the form in which Text.str_lines_unlines takes it *)
Lemma no_cr_end_ends l : no_cr_end l -> ends_no_cr l.
Proof.
  intros H. unfold ends_no_cr, is_cr. destruct (rev l) as [|d r] eqn:E; [exact I|].
  destruct (N.eqb_spec d CR) as [->|_]; [|reflexivity]. exfalso. apply (H (rev r)).
  rewrite <- (rev_involutive l), E. reflexivity.
Qed.

(* str::lines, which the parser used before 686d4f4 *)
Lemma str_lines_print cs : lines_all nolf cs -> lines_all no_cr_end cs ->
  str_lines (print_modified cs) = flat cs.
Proof.
  intros H Hcr. rewrite print_modified_unlines, <- (app_nil_r (unlines _)), str_lines_unlines.
  - apply app_nil_r.
  - apply flat_Forall; [exact print_header_nolf|exact H].
  - eapply Forall_impl; [exact no_cr_end_ends|]. apply flat_Forall; [exact print_header_no_cr_end|exact Hcr].
Qed.

Lemma print_parse_pre_roundtrip_partial_lemma cs : WF cs -> lines_all no_cr_end cs ->
  parse_modified_pre (print_modified cs) = Some cs.
Proof.
  intros H Hcr. unfold parse_modified_pre, parse_modified_pre_res.
  rewrite str_lines_print, parse_lines_flat, wf_in_range by (exact H || exact Hcr || apply wf_lines_nolf, H).
  reflexivity.
Qed.

Lemma dlines_nolf t : Forall nolf (dlines t).
Proof.
  unfold dlines. apply Forall_app. split.
  - apply str_lines_no_lf.
  - destruct (ends_with_lf t); constructor; [intros []|constructor].
Qed.

Lemma report_wf_lemma (a b : text) :
  N.of_nat (length (dlines a)) < U32_MAX -> N.of_nat (length (dlines b)) <= USIZE_MAX ->
  WF (map mchunk_of (impl_modified_lines a b)).
Proof.
  intros Ha Hb. unfold impl_modified_lines, impl_make_diff, modified_lines.
  destruct (diff_lines_valid a b) as (HL & HR & Hbe).
  pose proof (make_diff0_hunks (diff_lines a b) Hbe) as Hh. rewrite HL, HR in Hh.
  unfold WF. rewrite map_map. apply Forall_map. eapply Forall_impl; [|exact Hh].
  intros m [(pa & xa & Epa & Hpa) (pb & xb & Epb & Hpb)].
  pose proof (dlines_nolf b) as Hlf. rewrite Epb in Hlf.
  apply Forall_app in Hlf. destruct Hlf as [_ Hlf]. apply Forall_app in Hlf. destruct Hlf as [Hlf _].
  apply (f_equal (@length _)) in Epa, Epb. rewrite !app_length in Epa, Epb.
  unfold wf_chunk, mchunk_of, chunk_of. cbn [mc_orig mc_removed mc_lines ch_orig ch_removed ch_lines].
  rewrite filter_res_length. split; [|split; [|split]].
  - (* mm_orig m = S |pa|, which is |dlines a| + 1 for lines added at the end: hence < for a *) lia.
  - lia.
  - lia.
  - exact Hlf.
Qed.

Lemma report_print_parse_roundtrip_lemma (a b : text) :
  N.of_nat (length (dlines a)) < U32_MAX -> N.of_nat (length (dlines b)) <= USIZE_MAX ->
  parse_modified (print_modified (map mchunk_of (impl_modified_lines a b)))
  = Some (map mchunk_of (impl_modified_lines a b)).
Proof. intros Ha Hb. apply print_parse_roundtrip_lemma. apply report_wf_lemma; assumption. Qed.

(* a line containing LF, "a\n2 0 0": the text parses, to a different report *)
Lemma print_parse_roundtrip_lf_refuted_lemma : exists cs cs',
  Forall (fun c => mc_orig c <= U32_MAX /\ mc_removed c <= U32_MAX /\ N.of_nat (length (mc_lines c)) <= USIZE_MAX) cs /\
  parse_modified (print_modified cs) = Some cs' /\ cs' <> cs.
Proof.
  exists [MkMC 1 0 [[97; 10; 50; 32; 48; 32; 48]]], [MkMC 1 0 [[97]]; MkMC 2 0 []].
  split; [|split]; [|vm_compute; reflexivity|discriminate].
  constructor; [|constructor]. cbn [mc_orig mc_removed mc_lines length]. unfold U32_MAX, USIZE_MAX. lia.
Qed.

(* a number that does not fit u32 (not a value of the Rust type): the text is rejected *)
Lemma print_parse_roundtrip_u32_refuted_lemma : exists cs,
  lines_all nolf cs /\ parse_modified (print_modified cs) = None.
Proof.
  exists [MkMC 4294967296 0 []]. split; [|vm_compute; reflexivity]. constructor; [constructor|constructor].
Qed.

(* str::lines strips the CR of a reported line that ends in CR *)
Lemma print_parse_pre_refuted_lemma : exists cs cs',
  WF cs /\ parse_modified_pre (print_modified cs) = Some cs' /\ cs' <> cs.
Proof.
  exists [MkMC 3 1 [[120; 13]]], [MkMC 3 1 [[120]]].
  split; [|split]; [|vm_compute; reflexivity|discriminate].
  constructor; [|constructor]. unfold wf_chunk. cbn [mc_orig mc_removed mc_lines length].
  unfold U32_MAX, USIZE_MAX. repeat split; try lia.
  constructor; [|constructor]. intros [H|[H|[]]]; discriminate H.
Qed.

(* print after parse is not the identity on arbitrary accepted texts: "+1\t05 0 x" has a '+', a tab, a leading
   zero, a fourth word and no final newline *)
Lemma parse_then_print_refuted_lemma : exists t cs,
  parse_modified t = Some cs /\ print_modified cs <> t.
Proof.
  exists [43; 49; 9; 48; 53; 32; 48; 32; 120], [MkMC 1 5 []]. split; [vm_compute; reflexivity|].
  vm_compute. discriminate.
Qed.
