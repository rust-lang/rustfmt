(* C12/Props.v — the property theorems of C12 (statements only; proofs in Lemmas.v, which begins with the
   predicates used here: hunk_at with osd and nsd, jblock_ok, nolf, WF, no_cr_end).
   C12: "For any original and formatted text, the chunks of the modified-lines report applied to the
   original yield the formatted text line for line, ... the json and checkstyle reports name the same line
   numbers and texts, and each diff hunk's context, removed and added lines are consistent with both texts at
   the stated line numbers. A report is empty exactly when the two texts have the same lines; the json and
   checkstyle documents are well-formed whatever characters the source contains."
   All statements are for every pair of texts / every valid diff script and every context size: no bound. *)
From V Require Import Base.Text C12.Model C12.Lemmas.
Local Open Scope nat_scope.

(* diff::lines yields a valid edit script between the two line sequences, and its Both entries pair equal lines *)
Theorem lcs_valid : forall a b : text,
  projL (diff_lines a b) = dlines a /\ projR (diff_lines a b) = dlines b /\ both_eq (diff_lines a b).
Proof. exact diff_lines_valid. Qed.
Print Assumptions lcs_valid.

(* modified-lines clause: applying the chunks (context 0) to the original gives the formatted lines;
   for ANY valid script, hence for any diff algorithm *)
Theorem apply_reconstructs : forall (A : Type) (s : list (dres A)),
  both_eq s -> apply_chunks 1 (projL s) (modified_lines (make_diff 0 s)) = Some (projR s).
Proof. exact (@apply_reconstructs_lemma). Qed.
Print Assumptions apply_reconstructs.

(* the same, end to end on texts *)
Theorem apply_reconstructs_text : forall a b : text,
  apply_chunks 1 (dlines a) (impl_modified_lines a b) = Some (dlines b).
Proof. exact apply_reconstructs_text_lemma. Qed.
Print Assumptions apply_reconstructs_text.

(* each hunk's context+removed lines are in the original at line_number_orig, its context+added lines in the
   formatted text at line_number; every context size *)
Theorem hunks_consistent : forall (A : Type) (ctx : nat) (s : list (dres A)),
  both_eq s -> Forall (hunk_at (projL s) (projR s)) (make_diff ctx s).
Proof. exact (@hunks_consistent_lemma). Qed.
Print Assumptions hunks_consistent.

(* a report is empty exactly when the two texts have the same lines (same str::lines and same final-newline flag) *)
Theorem empty_iff : forall (ctx : nat) (a b : text),
  impl_make_diff ctx a b = [] <-> (str_lines a = str_lines b /\ ends_with_lf a = ends_with_lf b).
Proof. exact empty_iff_lemma. Qed.
Print Assumptions empty_iff.

(* json: original/expected are the removed/added lines found at the begin lines in the two texts;
   end = begin + count - 1 (and end = begin when count = 0) *)
Theorem json_blocks_ok : forall (A : Type) (s : list (dres A)),
  both_eq s -> Forall (jblock_ok (projL s) (projR s)) (json_blocks (make_diff 0 s)).
Proof. exact (@json_blocks_ok_lemma). Qed.
Print Assumptions json_blocks_ok.

(* checkstyle: every reported (line, message) is a line of the formatted text at that 1-based number *)
Theorem checkstyle_lines_ok : forall (A : Type) (s : list (dres A)) (n : nat) (msg : A),
  both_eq s -> In (n, msg) (checkstyle_errors (make_diff 0 s)) ->
  1 <= n /\ nth_error (projR s) (n - 1) = Some msg.
Proof. exact (@checkstyle_lines_ok_lemma). Qed.
Print Assumptions checkstyle_lines_ok.

(* XmlEscaped loses nothing and its output is a well-formed attribute value (no raw '<', double quote, or bare '&') *)
Theorem xml_escape_ok : forall t : text,
  xml_unescape (xml_escape t) = t /\ wf_attr (xml_escape t) = true.
Proof. intros t. split; [apply xml_unescape_escape|apply xml_escape_wf]. Qed.
Print Assumptions xml_escape_ok.

(* ... but characters with no XML 1.0 representation pass through unchanged: well-formedness "whatever
   characters the source contains" holds only outside this class (known finding class HasXmlForbiddenChar) *)
Theorem checkstyle_wellformed_partial : forall t : text,
  existsb xml_forbidden t = false -> existsb xml_forbidden (xml_escape t) = false /\ wf_attr (xml_escape t) = true.
Proof. intros t H. split; [rewrite xml_escape_forbidden; exact H|apply xml_escape_wf]. Qed.
Print Assumptions checkstyle_wellformed_partial.

Theorem checkstyle_wellformed_refuted : exists t : text,
  existsb xml_forbidden (xml_escape t) = true.
Proof. exists [12%N]. reflexivity. Qed.
Print Assumptions checkstyle_wellformed_refuted.

(* ---- "the report survives printing and re-parsing": ModifiedLines Display / FromStr ---- *)
(* WF cs (Lemmas.v): every chunk has mc_orig <= U32_MAX, mc_removed <= U32_MAX, number of lines <= USIZE_MAX
   (all three hold of every value of the Rust type) and no line contains LF.  Nothing is assumed about CR. *)

(* decimal printing (Display for u32/usize) followed by parsing (FromStr) is the identity on values in range *)
Theorem decimal_roundtrip : forall max n : N, (n <= max)%N -> parse_uint max (dec n) = Some n.
Proof. exact parse_uint_dec. Qed.
Print Assumptions decimal_roundtrip.

(* print/parse clause: every well-formed report parses back to itself *)
Theorem print_parse_roundtrip : forall cs : list mchunk,
  WF cs -> parse_modified (print_modified cs) = Some cs.
Proof. exact print_parse_roundtrip_lemma. Qed.
Print Assumptions print_parse_roundtrip.

(* ... and WF is the weakest such hypothesis: a report that survives is well-formed *)
Theorem print_parse_roundtrip_wf_necessary : forall cs : list mchunk,
  parse_modified (print_modified cs) = Some cs -> WF cs.
Proof. exact print_parse_roundtrip_wf_necessary_lemma. Qed.
Print Assumptions print_parse_roundtrip_wf_necessary.

(* without "no LF inside a line": the text parses to a different report *)
Theorem print_parse_roundtrip_lf_refuted : exists cs cs' : list mchunk,
  Forall (fun c => (mc_orig c <= U32_MAX)%N /\ (mc_removed c <= U32_MAX)%N /\
                   (N.of_nat (length (mc_lines c)) <= USIZE_MAX)%N) cs /\
  parse_modified (print_modified cs) = Some cs' /\ cs' <> cs.
Proof. exact print_parse_roundtrip_lf_refuted_lemma. Qed.
Print Assumptions print_parse_roundtrip_lf_refuted.

(* without the u32 range (a modelling hypothesis: the Rust fields are u32): the text is rejected *)
Theorem print_parse_roundtrip_u32_refuted : exists cs : list mchunk,
  Forall (fun c => Forall nolf (mc_lines c)) cs /\ parse_modified (print_modified cs) = None.
Proof. exact print_parse_roundtrip_u32_refuted_lemma. Qed.
Print Assumptions print_parse_roundtrip_u32_refuted.

(* converse: whatever text the parser accepts, the value is well-formed and is a fixed point of print-then-parse *)
Theorem parse_print_parse : forall (t : text) (cs : list mchunk),
  parse_modified t = Some cs -> WF cs /\ parse_modified (print_modified cs) = Some cs.
Proof. exact parse_print_parse_lemma. Qed.
Print Assumptions parse_print_parse.

(* converse on texts produced by print: if such a text is accepted, the parsed value prints to the same text *)
Theorem print_of_parse_of_print : forall cs cs' : list mchunk,
  Forall (fun c => Forall nolf (mc_lines c)) cs ->
  parse_modified (print_modified cs) = Some cs' -> print_modified cs' = print_modified cs.
Proof. exact print_of_parse_of_print_lemma. Qed.
Print Assumptions print_of_parse_of_print.

(* ... but not on arbitrary accepted texts (leading '+', zeros, tabs, extra words, missing final newline) *)
Theorem parse_then_print_refuted : exists (t : text) (cs : list mchunk),
  parse_modified t = Some cs /\ print_modified cs <> t.
Proof. exact parse_then_print_refuted_lemma. Qed.
Print Assumptions parse_then_print_refuted.

(* the printed text determines the report *)
Theorem print_injective : forall cs cs' : list mchunk,
  WF cs -> WF cs' -> print_modified cs = print_modified cs' -> cs = cs'.
Proof. exact print_injective_lemma. Qed.
Print Assumptions print_injective.

(* from_str terminates on every text: with fuel = number of lines the loop is never cut short, so the result
   is Ok or Err(()); no operation of from_str can panic, so there is no third outcome (both parser versions) *)
Theorem parse_total : forall t : text,
  parse_modified_res t <> PDiverge /\ parse_modified_pre_res t <> PDiverge.
Proof. exact parse_total_lemma. Qed.
Print Assumptions parse_total.

(* the parser before 686d4f4 (str::lines): a reported line ending in CR comes back without it *)
Theorem print_parse_pre_refuted : exists cs cs' : list mchunk,
  WF cs /\ parse_modified_pre (print_modified cs) = Some cs' /\ cs' <> cs.
Proof. exact print_parse_pre_refuted_lemma. Qed.
Print Assumptions print_parse_pre_refuted.

(* what held of it: the round trip for reports none of whose lines ends in CR *)
Theorem print_parse_pre_roundtrip_partial : forall cs : list mchunk,
  WF cs -> Forall (fun c => Forall no_cr_end (mc_lines c)) cs ->
  parse_modified_pre (print_modified cs) = Some cs.
Proof. exact print_parse_pre_roundtrip_partial_lemma. Qed.
Print Assumptions print_parse_pre_roundtrip_partial.

(* end to end: the report make_diff produces for any two texts (fewer than 2^32 - 1 lines, so that the u32 line
   numbers exist) survives printing and re-parsing, CRs included *)
Theorem report_print_parse_roundtrip : forall a b : text,
  (N.of_nat (length (dlines a)) < U32_MAX)%N -> (N.of_nat (length (dlines b)) <= USIZE_MAX)%N ->
  parse_modified (print_modified (map mchunk_of (impl_modified_lines a b)))
  = Some (map mchunk_of (impl_modified_lines a b)).
Proof. exact report_print_parse_roundtrip_lemma. Qed.
Print Assumptions report_print_parse_roundtrip.
