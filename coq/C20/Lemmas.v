(* C20/Lemmas.v — proofs for C20: from any state s0 in which f holds the original, the four operations of the backup
   protocol lead through the states sA, sW, sC, sD; a stop leaves a state that differs from s0 at FILE.tmp only, or sC,
   or sD (stopped_cases), and Inv holds in each.  Then the witnesses against the plain write and against the
   protocol before the repair, and the sibling names. *)
From V Require Import Base.Text C20.Model.
Local Open Scope nat_scope.

Lemma upd_same s p v : upd s p v p = v.
Proof. unfold upd. rewrite N.eqb_refl. reflexivity. Qed.
Lemma upd_other s p v q : q <> p -> upd s p v q = s q.
Proof. unfold upd. intros H. destruct (N.eqb_spec q p); [contradiction|reflexivity]. Qed.

Lemma resolve_nonlink fuel s p : (forall q, s p <> Some (Link q)) -> resolve fuel s p = Some p.
Proof.
  intros H. destruct fuel; cbn [resolve]; destruct (s p) as [[t|q|]|] eqn:E; try reflexivity;
    exfalso; apply (H q); reflexivity.
Qed.
Lemma read_file s p t : s p = Some (File t) -> read s p = Some t.
Proof.
  intros H. unfold read. rewrite resolve_nonlink by (intros q Hq; rewrite H in Hq; discriminate Hq).
  rewrite H. reflexivity.
Qed.
Lemma read_absent s p : s p = None -> read s p = None.
Proof.
  intros H. unfold read. rewrite resolve_nonlink by (intros q Hq; rewrite H in Hq; discriminate Hq).
  rewrite H. reflexivity.
Qed.

(* what a stop can leave behind of o :: l, from what it can leave behind of l; a stop inside o shows only if o is a
   write, and then it leaves what the complete write of a prefix of the data leaves *)
Lemma stopped_at_cons (P : fsstate -> Prop) s o l :
  P s ->
  (forall p d k s', o = Write p d -> exec s (Write p (firstn k d)) = Some s' -> P s') ->
  (forall s', exec s o = Some s' -> forall n k b st, stopped_at s' l n k b = Some st -> P st) ->
  forall n k b st, stopped_at s (o :: l) n k b = Some st -> P st.
Proof.
  intros Hs Hi Hl [|n] k b st.
  - intros [= <-]. destruct b; [|exact Hs]. destruct o as [p|p d|a c]; [exact Hs| |exact Hs].
    specialize (Hi p d k). unfold exec in Hi. unfold interrupt.
    destruct (resolve MAXSYMLINKS s p) as [q|]; [|exact Hs].
    destruct (is_dir s q); [exact Hs|exact (Hi _ eq_refl eq_refl)].
  - unfold stopped_at. cbn [firstn run nth_error].
    destruct (exec s o) as [s'|]; [exact (Hl s' eq_refl n k b st)|discriminate].
Qed.
Lemma stopped_at_nil s n k b : stopped_at s [] n k b = Some s.
Proof. destruct n; reflexivity. Qed.

Section Proofs.
Variable tmp_of bk_of : path -> path.
Variable f : path.
Variables orig fmt : text.
Hypothesis tmp_ne_f : tmp_of f <> f.
Hypothesis bk_ne_f : bk_of f <> f.
Hypothesis tmp_ne_bk : tmp_of f <> bk_of f.
Hypothesis differ : eqb_text orig fmt = false.
Variable s0 : fsstate.                                  (* ANY state of the siblings: absent, files, links, directories *)
Hypothesis f_has_orig : s0 f = Some (File orig).

Local Notation T := (tmp_of f).
Local Notation B := (bk_of f).
Local Definition ops := backup_ops tmp_of bk_of f orig fmt.

Lemma ops_eq : ops = [Remove T; Write T fmt; Rename f B; Rename T f].
Proof. unfold ops, backup_ops. rewrite differ. reflexivity. Qed.

(* the intermediate states: after the removal, with d written to T, after the first and the second rename *)
Local Definition sA := if is_dir s0 T then s0 else upd s0 T None.
Local Definition sW (d : text) := upd sA T (Some (File d)).
Local Definition sC := upd (upd (sW fmt) B (Some (File orig))) f None.
Local Definition sD := upd (upd sC f (Some (File fmt))) T None.

Lemma f_ne_T : f <> T. Proof. exact (not_eq_sym tmp_ne_f). Qed.
Lemma f_ne_B : f <> B. Proof. exact (not_eq_sym bk_ne_f). Qed.
Lemma B_ne_T : B <> T. Proof. exact (not_eq_sym tmp_ne_bk). Qed.

Lemma sA_off q : q <> T -> sA q = s0 q.
Proof. intros H. unfold sA. destruct (is_dir s0 T); [reflexivity|exact (upd_other _ _ _ _ H)]. Qed.
Lemma sW_off d q : q <> T -> sW d q = s0 q.
Proof. intros H. unfold sW. rewrite upd_other by exact H. exact (sA_off q H). Qed.
Lemma sA_T : sA T = if is_dir s0 T then Some Dir else None.
Proof.
  unfold sA. destruct (is_dir s0 T) eqn:E; [|apply upd_same].
  unfold is_dir in E. destruct (s0 T) as [[t|l|]|]; try discriminate E. reflexivity.
Qed.

Lemma sC_f : sC f = None.
Proof. apply upd_same. Qed.
Lemma sC_B : sC B = Some (File orig).
Proof. unfold sC. rewrite upd_other by exact bk_ne_f. apply upd_same. Qed.
Lemma sC_T : sC T = Some (File fmt).
Proof. unfold sC. rewrite upd_other by exact tmp_ne_f. rewrite upd_other by exact tmp_ne_bk. apply upd_same. Qed.
Lemma sD_f : sD f = Some (File fmt).
Proof. unfold sD. rewrite upd_other by exact f_ne_T. apply upd_same. Qed.
Lemma sD_B : sD B = Some (File orig).
Proof. unfold sD. rewrite upd_other by exact B_ne_T. rewrite upd_other by exact bk_ne_f. exact sC_B. Qed.
Lemma sD_T : sD T = None.
Proof. apply upd_same. Qed.
Lemma sC_off q : q <> f -> q <> T -> q <> B -> sC q = s0 q.
Proof. intros H1 H2 H3. unfold sC. rewrite !upd_other by assumption. exact (sW_off fmt q H2). Qed.
Lemma sD_off q : q <> f -> q <> T -> q <> B -> sD q = s0 q.
Proof. intros H1 H2 H3. unfold sD. rewrite !upd_other by assumption. exact (sC_off q H1 H2 H3). Qed.

Lemma exec_remove : exec s0 (Remove T) = Some sA.
Proof. reflexivity. Qed.
Lemma exec_write d : exec sA (Write T d) = if is_dir s0 T then None else Some (sW d).
Proof.
  unfold exec. rewrite resolve_nonlink by (intros q; rewrite sA_T; destruct (is_dir s0 T); discriminate).
  unfold is_dir at 1. rewrite sA_T. destruct (is_dir s0 T); reflexivity.
Qed.
Lemma exec_rename1 : exec (sW fmt) (Rename f B) = if is_dir s0 B then None else Some sC.
Proof.
  unfold exec, is_dir. rewrite (sW_off fmt f f_ne_T), (sW_off fmt B B_ne_T), f_has_orig. reflexivity.
Qed.
Lemma exec_rename2 : exec sC (Rename T f) = Some sD.
Proof. unfold exec, is_dir. rewrite sC_T, sC_f. reflexivity. Qed.

Lemma run_ops_eq : run s0 ops = if is_dir s0 T then None else if is_dir s0 B then None else Some sD.
Proof.
  rewrite ops_eq. cbn [run]. rewrite exec_remove, exec_write. destruct (is_dir s0 T); [reflexivity|].
  rewrite exec_rename1. destruct (is_dir s0 B); [reflexivity|]. rewrite exec_rename2. reflexivity.
Qed.

(* where a run can stop: in a state that differs from s0 at T only, or in sC, or in sD *)
Lemma stopped_cases (P : fsstate -> Prop) :
  (forall s, (forall q, q <> T -> s q = s0 q) -> P s) -> P sC -> P sD ->
  forall n k started st, stopped_at s0 ops n k started = Some st -> P st.
Proof.
  intros H0 HC HD. rewrite ops_eq.
  apply stopped_at_cons; [apply H0; reflexivity|discriminate|].
  intros s1. rewrite exec_remove. intros [= <-].
  apply stopped_at_cons; [exact (H0 _ sA_off)| |].
  { intros p d k s' [= <- <-]. rewrite exec_write. destruct (is_dir s0 T); intros [= <-]. exact (H0 _ (sW_off _)). }
  intros s2. rewrite exec_write. destruct (is_dir s0 T); intros [= <-].
  apply stopped_at_cons; [exact (H0 _ (sW_off fmt))|discriminate|].
  intros s3. rewrite exec_rename1. destruct (is_dir s0 B); intros [= <-].
  apply stopped_at_cons; [exact HC|discriminate|].
  intros s4. rewrite exec_rename2. intros [= <-] n k b st. rewrite stopped_at_nil. intros [= <-]. exact HD.
Qed.

Lemma inv_of_f s : s f = Some (File orig) -> Inv f B orig fmt s.
Proof.
  intros H. unfold Inv. rewrite (read_file _ _ _ H). split; [left; reflexivity|].
  intros b [= <-]. left; reflexivity.
Qed.
Lemma inv_of_bk s : s B = Some (File orig) -> s f = None \/ s f = Some (File fmt) -> Inv f B orig fmt s.
Proof.
  intros HB Hf. split; [right; exact (read_file _ _ _ HB)|].
  intros b. destruct Hf as [Hf|Hf]; [rewrite (read_absent _ _ Hf)|rewrite (read_file _ _ _ Hf)]; intros [= <-].
  right; reflexivity.
Qed.

Lemma crash_safe_lemma n k started st :
  stopped_at s0 ops n k started = Some st -> Inv f B orig fmt st.
Proof.
  apply stopped_cases.
  - intros s H. apply inv_of_f. rewrite (H f f_ne_T). exact f_has_orig.
  - exact (inv_of_bk sC sC_B (or_introl sC_f)).
  - exact (inv_of_bk sD sD_B (or_intror sD_f)).
Qed.

(* bk_ne_f is not used; the Proof using clause keeps it among the hypotheses, as Props.failing_op_stops has it *)
Lemma failing_op_stops_lemma :
  (is_dir s0 T = true -> run s0 ops = None /\ exists st, stopped_at s0 ops 1 0 false = Some st) /\
  (is_dir s0 T = false -> is_dir s0 B = true -> run s0 ops = None /\ exists st, stopped_at s0 ops 2 0 false = Some st).
Proof using tmp_ne_f bk_ne_f tmp_ne_bk differ f_has_orig.
  split.
  - intros HT. split; [rewrite run_ops_eq, HT; reflexivity|]. exists sA. rewrite ops_eq. reflexivity.
  - intros HT HB. split; [rewrite run_ops_eq, HT, HB; reflexivity|]. exists (sW fmt).
    rewrite ops_eq. unfold stopped_at. cbn [firstn run nth_error]. rewrite exec_remove, exec_write, HT. reflexivity.
Qed.

Lemma success_post_lemma : is_dir s0 T = false -> is_dir s0 B = false ->
  exists st, run s0 ops = Some st /\ st f = Some (File fmt) /\ st B = Some (File orig) /\ st T = None.
Proof.
  intros HT HB. exists sD. rewrite run_ops_eq, HT, HB.
  split; [reflexivity|]. split; [exact sD_f|]. split; [exact sD_B|exact sD_T].
Qed.

Lemma others_untouched_lemma n k started st q :
  q <> f -> q <> T -> q <> B ->
  stopped_at s0 ops n k started = Some st -> st q = s0 q.
Proof.
  intros H1 H2 H3. apply (stopped_cases (fun st => st q = s0 q)).
  - intros s H. exact (H q H2).
  - exact (sC_off q H1 H2 H3).
  - exact (sD_off q H1 H2 H3).
Qed.
End Proofs.

Lemma unchanged_no_ops tmp_of bk_of f t : backup_ops tmp_of bk_of f t t = [].
Proof. unfold backup_ops. rewrite eqb_text_refl. reflexivity. Qed.

Lemma files_not_crash_safe :
  exists (f bk : path) (orig fmt : text) (s0 : fsstate) st,
    s0 f = Some (File orig) /\ stopped_at s0 (files_ops f orig fmt) 0 1 true = Some st /\ ~ Inv f bk orig fmt st.
Proof.
  exists 1%N, 2%N, [97%N; 98%N], [99%N; 100%N], (fun q => if N.eqb q 1%N then Some (File [97%N; 98%N]) else None).
  eexists. split; [reflexivity|]. split; [reflexivity|].
  intros [[H|H] _]; vm_compute in H; discriminate.
Qed.

(* before the repair (no Remove): a stale FILE.tmp that is a symbolic link to FILE itself makes the first write land
   in FILE; the run "succeeds" and the original is in no file; a link to another file overwrites that file *)
Definition s0_link_self : fsstate := fun q => if N.eqb q 1%N then Some (File [97%N; 98%N]) else if N.eqb q 2%N then Some (Link 1%N) else None.
Definition s0_link_other : fsstate := fun q => if N.eqb q 1%N then Some (File [97%N; 98%N]) else if N.eqb q 2%N then Some (Link 9%N)
                                               else if N.eqb q 9%N then Some (File [120%N]) else None.
Lemma pre_repair_symlink_loses_original :
  exists st, run s0_link_self (backup_ops_pre (fun p => (p + 1)%N) (fun p => (p + 2)%N) 1%N [97%N; 98%N] [99%N]) = Some st /\
             ~ Inv 1%N 3%N [97%N; 98%N] [99%N] st.
Proof.
  eexists. split; [vm_compute; reflexivity|]. intros [[H|H] _]; vm_compute in H; discriminate.
Qed.
Lemma pre_repair_symlink_touches_other :
  exists st, run s0_link_other (backup_ops_pre (fun p => (p + 1)%N) (fun p => (p + 2)%N) 1%N [97%N; 98%N] [99%N]) = Some st /\
             st 9%N <> s0_link_other 9%N.
Proof. eexists. split; [vm_compute; reflexivity|]. vm_compute. discriminate. Qed.
(* the same two states under the repaired protocol: invariant kept, other file untouched (instances of the theorems) *)
Lemma repaired_symlink_examples :
  (exists st, run s0_link_self (backup_ops (fun p => (p + 1)%N) (fun p => (p + 2)%N) 1%N [97%N; 98%N] [99%N]) = Some st /\
              read st 1%N = Some [99%N] /\ read st 3%N = Some [97%N; 98%N]) /\
  (exists st, run s0_link_other (backup_ops (fun p => (p + 1)%N) (fun p => (p + 2)%N) 1%N [97%N; 98%N] [99%N]) = Some st /\
              st 9%N = s0_link_other 9%N).
Proof. split; eexists; (split; [vm_compute; reflexivity|]); vm_compute; auto. Qed.

Lemma eqb_text_true_iff : forall a b : text, eqb_text a b = true <-> a = b.
Proof. exact eqb_text_spec. Qed.

Lemma app_cons_neq {A : Type} (l r : list A) (c : A) : l ++ c :: r <> l.
Proof.
  intros H. rewrite <- (app_nil_r l) in H at 2. apply app_inv_head in H. discriminate H.
Qed.

Lemma tmp_bk_texts_differ : T_TMP <> T_BK.
Proof. discriminate. Qed.

(* a name equal to its own sibling with extension e would have extension e, so e was appended to the whole name *)
Lemma sibling_neq (f : fname) (e : text) : eqb_text e T_TMP || eqb_text e T_BK = true ->
  (if collides f then append_ext f e else with_extension f e) <> f.
Proof.
  intros He H.
  assert (S : snd f = Some e) by (rewrite <- H; destruct (collides f); reflexivity).
  assert (C : collides f = true) by (unfold collides; rewrite S; exact He).
  rewrite C in H. apply (f_equal fst) in H. unfold append_ext, whole in H. rewrite S in H.
  exact (app_cons_neq _ _ _ H).
Qed.

Lemma backup_names_distinct_lemma : forall f : fname,
  tmp_name f <> f /\ bk_name f <> f /\ tmp_name f <> bk_name f.
Proof.
  intros f. split; [exact (sibling_neq f T_TMP eq_refl)|]. split; [exact (sibling_neq f T_BK eq_refl)|].
  unfold tmp_name, bk_name. destruct (collides f); intros [= H]; exact (tmp_bk_texts_differ H).
Qed.

Lemma backup_names_pre_collide_lemma :
  (exists f : fname, tmp_name_pre f = f) /\ (exists f : fname, bk_name_pre f = f).
Proof. split; [exists ([97%N], Some T_TMP) | exists ([98%N], Some T_BK)]; reflexivity. Qed.

Lemma backup_names_unchanged_lemma : forall f : fname, collides f = false ->
  tmp_name f = tmp_name_pre f /\ bk_name f = bk_name_pre f.
Proof. intros f H. unfold tmp_name, bk_name. rewrite H. split; reflexivity. Qed.
