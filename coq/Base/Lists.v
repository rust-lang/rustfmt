(* Base/Lists.v — facts about lists that several properties need and Coq 8.16's List / Permutation / Sorted do not
   have: permutation-invariance of the boolean quantifiers, strongly sorted lists, and insertion sort over an
   arbitrary insertion function of the usual shape (each model has its own, with its own comparison). *)
From Coq Require Import List Bool Permutation Sorted.
Import ListNotations.

Lemma NoDup_snoc {A} (l : list A) x : NoDup l -> ~ In x l -> NoDup (l ++ [x]).
Proof.
  intros Hl Hx. eapply Permutation_NoDup; [apply Permutation_cons_append | constructor; assumption].
Qed.

Lemma existsb_perm {A} (f : A -> bool) l l' : Permutation l l' -> existsb f l = existsb f l'.
Proof.
  induction 1 as [|x l l' _ IH|x y l|l l' l'' _ IH1 _ IH2]; cbn [existsb].
  - reflexivity.
  - rewrite IH. reflexivity.
  - rewrite !orb_assoc, (orb_comm (f y)). reflexivity.
  - congruence.
Qed.

Lemma forallb_perm {A} (f : A -> bool) l l' : Permutation l l' -> forallb f l = forallb f l'.
Proof.
  induction 1 as [|x l l' _ IH|x y l|l l' l'' _ IH1 _ IH2]; cbn [forallb].
  - reflexivity.
  - rewrite IH. reflexivity.
  - rewrite !andb_assoc, (andb_comm (f y)). reflexivity.
  - congruence.
Qed.

Lemma SS_cons_iff {A} (R : A -> A -> Prop) a l :
  StronglySorted R (a :: l) <-> StronglySorted R l /\ forall x, In x l -> R a x.
Proof.
  rewrite <- Forall_forall. split.
  - apply StronglySorted_inv.
  - intros [Hl Ha]. constructor; assumption.
Qed.

(* a list has at most one sorted arrangement: whatever sorting algorithm the code uses, a model of it by
   insertion sort loses nothing *)
Lemma sorted_perm_unique {A} (R : A -> A -> Prop) :
  (forall a b, R a b -> R b a -> a = b) ->
  forall l1 l2, StronglySorted R l1 -> StronglySorted R l2 -> Permutation l1 l2 -> l1 = l2.
Proof.
  intros Hanti. induction l1 as [|a l1 IH]; intros [|b l2] H1 H2 HP.
  - reflexivity.
  - apply Permutation_nil in HP. discriminate.
  - symmetry in HP. apply Permutation_nil in HP. discriminate.
  - apply SS_cons_iff in H1 as [H1 Ha]. apply SS_cons_iff in H2 as [H2 Hb].
    assert (a = b) as <-.
    { destruct (Permutation_in a HP (or_introl eq_refl)) as [E|Hina]; [symmetry; exact E|].
      destruct (Permutation_in b (Permutation_sym HP) (or_introl eq_refl)) as [E|Hinb]; [exact E|].
      apply Hanti; [apply Ha, Hinb | apply Hb, Hina]. }
    f_equal. apply IH; [exact H1 | exact H2 | exact (Permutation_cons_inv HP)].
Qed.

(* Insertion sort.  `ins` is any function with the two equations below (for the models' insertion functions they
   hold by reflexivity, or by one case split where the comparison is three-valued); the sort is fold_right ins []. *)
Section InsertionSort.
Context {A : Type} (leb : A -> A -> bool) (ins : A -> list A -> list A).
Hypothesis ins_nil : forall x, ins x [] = [x].
Hypothesis ins_cons : forall x y l, ins x (y :: l) = if leb x y then x :: y :: l else y :: ins x l.

Lemma ins_perm x l : Permutation (ins x l) (x :: l).
Proof.
  induction l as [|y l IH]; [rewrite ins_nil; reflexivity|].
  rewrite ins_cons. destruct (leb x y); [reflexivity|]. rewrite IH. apply perm_swap.
Qed.

Lemma isort_perm l : Permutation (fold_right ins [] l) l.
Proof.
  induction l as [|x l IH]; cbn [fold_right]; [reflexivity|]. rewrite ins_perm, IH. reflexivity.
Qed.

Variable R : A -> A -> Prop.
Hypothesis leb_true : forall x y, leb x y = true -> R x y.
Hypothesis leb_false : forall x y, leb x y = false -> R y x.
Hypothesis R_trans : forall x y z, R x y -> R y z -> R x z.

Lemma ins_sorted x l : StronglySorted R l -> StronglySorted R (ins x l).
Proof.
  induction l as [|y l IH]; intros Hs.
  - rewrite ins_nil. repeat constructor.
  - rewrite ins_cons. apply SS_cons_iff in Hs as [Hl Hy]. destruct (leb x y) eqn:E; apply SS_cons_iff.
    + split; [apply SS_cons_iff; split; assumption|].
      intros z [<-|Hz]; [apply leb_true, E | eapply R_trans; [apply leb_true, E | apply Hy, Hz]].
    + split; [apply IH, Hl|].
      intros z Hz. apply (Permutation_in _ (ins_perm x l)) in Hz as [<-|Hz]; [apply leb_false, E | apply Hy, Hz].
Qed.

Lemma isort_sorted l : StronglySorted R (fold_right ins [] l).
Proof. induction l as [|x l IH]; cbn [fold_right]; [constructor | apply ins_sorted, IH]. Qed.
End InsertionSort.
