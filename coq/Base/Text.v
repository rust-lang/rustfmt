(* Base/Text.v — texts as lists of Unicode scalar values, and the pieces of the
   Rust standard library's string API that the models use: executable
   definitions, whose agreement with the real functions is checked by the
   correspondence runs of the properties that use them, followed by the lemmas
   about them that more than one property needs.  Importing this file opens
   N_scope (literals are chars / line numbers by default; write %nat for lengths). *)
From Coq Require Export List NArith Bool Arith Lia.
Export ListNotations.
Open Scope N_scope.
Open Scope list_scope.

Definition char := N.
Definition text := list char.

Definition LF : char := 10.
Definition CR : char := 13.
Definition TAB : char := 9.
Definition SP : char := 32.

Definition is_lf (c : char) : bool := N.eqb c LF.
Definition is_cr (c : char) : bool := N.eqb c CR.

(* char::is_whitespace (Unicode White_Space) *)
Definition is_whitespace (c : char) : bool :=
  ((9 <=? c) && (c <=? 13)) || (c =? 32) || (c =? 133) || (c =? 160) || (c =? 5760)
  || ((8192 <=? c) && (c <=? 8202)) || (c =? 8232) || (c =? 8233) || (c =? 8239)
  || (c =? 8287) || (c =? 12288).

(* str::split_inclusive('\n'): pieces keep their terminating LF; no empty
   final piece. *)
Fixpoint split_incl_aux (cur : text) (t : text) : list text :=
  match t with
  | [] => match cur with [] => [] | _ => [rev cur] end
  | c :: t' => if is_lf c then rev (c :: cur) :: split_incl_aux [] t'
               else split_incl_aux (c :: cur) t'
  end.
Definition split_inclusive (t : text) : list text := split_incl_aux [] t.

(* strip_suffix on the reversed piece *)
Definition strip_line_rev (r : text) : text :=
  match r with
  | c :: r' => if is_lf c then
                 match r' with
                 | d :: r'' => if is_cr d then r'' else r'
                 | [] => r'
                 end
               else r
  | [] => []
  end.
Definition strip_line (l : text) : text := rev (strip_line_rev (rev l)).

(* str::lines (Rust >= 1.64): split at LF, strip the LF and one CR directly
   before it; a line without LF keeps a trailing CR. *)
Definition str_lines (t : text) : list text := map strip_line (split_inclusive t).

Definition ends_with_lf (t : text) : bool :=
  match rev t with c :: _ => is_lf c | [] => false end.

(* join lines with a separator after each (writeln!) *)
Definition unlines (ls : list text) : text := concat (map (fun l => l ++ [LF]) ls).

Fixpoint eqb_text (a b : text) : bool :=
  match a, b with
  | [], [] => true
  | x :: a', y :: b' => (x =? y) && eqb_text a' b'
  | _, _ => false
  end.

Lemma eqb_text_spec a b : eqb_text a b = true <-> a = b.
Proof.
  revert b; induction a as [|x a IH]; intros [|y b]; cbn [eqb_text].
  - split; reflexivity.
  - split; discriminate.
  - split; discriminate.
  - rewrite andb_true_iff, N.eqb_eq, IH. split.
    + intros [-> ->]; reflexivity.
    + intros H; inversion H; auto.
Qed.

Lemma eqb_text_refl a : eqb_text a a = true.
Proof. apply eqb_text_spec. reflexivity. Qed.

Lemma eqb_text_reflect a b : reflect (a = b) (eqb_text a b).
Proof. apply iff_reflect. symmetry. apply eqb_text_spec. Qed.

Lemma eqb_text_neq a b : a <> b -> eqb_text a b = false.
Proof. destruct (eqb_text_reflect a b); [contradiction | reflexivity]. Qed.

Lemma is_lf_false c : c <> LF -> is_lf c = false.
Proof. apply N.eqb_neq. Qed.

Lemma split_incl_line l : forall cur t, ~ In LF l ->
  split_incl_aux cur (l ++ LF :: t) = (rev cur ++ l ++ [LF]) :: split_incl_aux [] t.
Proof.
  induction l as [|c l IH]; intros cur t Hl; cbn [app split_incl_aux].
  - change (is_lf LF) with true. reflexivity.
  - rewrite is_lf_false by (intros ->; apply Hl; left; reflexivity).
    rewrite IH by (intros H; apply Hl; right; exact H).
    cbn [rev]. rewrite <- app_assoc. reflexivity.
Qed.

Definition ends_no_cr (l : text) : Prop := match rev l with c :: _ => is_cr c = false | [] => True end.

Lemma strip_line_keep l : ends_no_cr l -> strip_line (l ++ [LF]) = l.
Proof.
  unfold ends_no_cr, strip_line. rewrite rev_app_distr. cbn [rev app strip_line_rev].
  change (is_lf LF) with true. cbv iota.
  destruct (rev l) as [|d r] eqn:E; intros H; [|rewrite H]; rewrite <- E; apply rev_involutive.
Qed.

(* Printing lines with a terminating LF each and reading them back with str::lines gives the same lines,
   provided none contains an LF or ends in CR (a CR directly before the LF would be stripped with it). *)
Lemma str_lines_unlines ls : forall t, Forall (fun l => ~ In LF l) ls -> Forall ends_no_cr ls ->
  str_lines (unlines ls ++ t) = ls ++ str_lines t.
Proof.
  unfold str_lines, split_inclusive, unlines.
  induction ls as [|l ls IH]; intros t Hlf Hcr; [reflexivity|].
  apply Forall_cons_iff in Hlf as [Hl Hlf]. apply Forall_cons_iff in Hcr as [Hc Hcr].
  cbn [map concat]. rewrite <- !app_assoc. cbn [app].
  rewrite split_incl_line by exact Hl. cbn [rev app map].
  rewrite strip_line_keep by exact Hc. rewrite IH by assumption. reflexivity.
Qed.

(* str::lines never yields a line with an LF inside *)
Lemma strip_piece_no_lf c cur : ~ In LF cur -> ~ In LF (strip_line (rev (c :: cur))).
Proof.
  intros Hcur. unfold strip_line. rewrite rev_involutive, <- in_rev. cbn [strip_line_rev].
  destruct (is_lf c) eqn:Ec.
  - destruct cur as [|d r]; [exact Hcur|]. destruct (is_cr d); [|exact Hcur].
    intros Hin. apply Hcur. right. exact Hin.
  - intros [->|Hin]; [discriminate Ec|exact (Hcur Hin)].
Qed.

Lemma split_incl_no_lf t : forall cur, ~ In LF cur ->
  Forall (fun l => ~ In LF l) (map strip_line (split_incl_aux cur t)).
Proof.
  induction t as [|c t IH]; intros cur Hcur; cbn [split_incl_aux].
  - destruct cur as [|x cur']; repeat constructor.
    apply strip_piece_no_lf. intros Hin. apply Hcur. right. exact Hin.
  - destruct (is_lf c) eqn:Ec.
    + constructor; [apply strip_piece_no_lf; exact Hcur|apply IH; intros []].
    + apply IH. intros [->|Hin]; [discriminate Ec|exact (Hcur Hin)].
Qed.

Lemma str_lines_no_lf t : Forall (fun l => ~ In LF l) (str_lines t).
Proof. apply split_incl_no_lf. intros []. Qed.
