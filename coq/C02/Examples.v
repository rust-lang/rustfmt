(* C02/Examples.v -- (1) the witnesses of the refuted statements of Props.v, printed as `use`
   declarations through the printer of C10/Run.v (a leading ! on a nested item = the item has
   a comment), with what each pass makes of them; (2) non-vacuity: for every implication of
   Props.v a non-trivial input that meets its hypotheses, and the conclusion recomputed on it. *)
From Coq Require Import String Ascii.
From V Require Import Base.Text C10.Model C10.Lemmas C10.Run C02.Lemmas.
Open Scope string_scope.
Open Scope list_scope.

Fixpoint txt (s : string) : text :=
  match s with EmptyString => [] | String c r => N_of_ascii c :: txt r end.
Fixpoint str (t : text) : string :=
  match t with [] => EmptyString | c :: r => String (ascii_of_N c) (str r) end.
(* a private `use` declaration from its text (parser of C10/Run.v) *)
Definition U (s : string) : tree :=
  match parse (txt s) with
  | Some (Node p k _ _ c) => Node p k (Some 0%N) None c
  | None => Node [] None None None false
  end.
(* the declaration as Rust text *)
Definition render (t : tree) : string :=
  (match vis t with Some 1%N => "pub " | _ => "" end) ++ "use " ++ str (show t) ++ ";".
Definition renders (ts : list tree) : list string := map render ts.
Definition N15 := normalize cmp15.
Definition S15 := step cmp15.
Definition P15 := pipeline cmp15.

(* ------------------------------------------------------------------ *)
(* (1) witnesses *)

(* normalize_idem_refuted / regroup_idem_selfchain_refuted *)
Example w_chain_text : render w_chain = "use a::self::self;".
Proof. vm_compute. reflexivity. Qed.
Example w_chain_passes :
  (render (N15 w_chain), render (N15 (N15 w_chain)), render (N15 (N15 (N15 w_chain))))
  = ("use a::self;", "use a;", "use a;").
Proof. vm_compute. reflexivity. Qed.
Example w_chain_is_U : w_chain = U "a::self::self".
Proof. vm_compute. reflexivity. Qed.
(* Module and Item repair the chain in one pass (nest_trailing_self): they are not in the statement *)
Example w_chain_module_item :
  (renders (S15 Module [w_chain]), renders (S15 Module (S15 Module [w_chain])),
   renders (S15 Item [w_chain]), renders (S15 Item (S15 Item [w_chain])))
  = (["use a::{self};"], ["use a::{self};"], ["use a::{self};"], ["use a::{self};"]).
Proof. vm_compute. reflexivity. Qed.
Example w_chain_crate :
  (renders (S15 GCrate [w_chain]), renders (S15 GCrate (S15 GCrate [w_chain])))
  = (["use a::self;"], ["use a;"]).
Proof. vm_compute. reflexivity. Qed.

(* normalize_idem_nested_refuted: the two shapes from_ast cannot build *)
Example w_kidvis_passes :
  (render w_kidvis, render (N15 w_kidvis), render (N15 (N15 w_kidvis)))
  = ("use a::{self};", "use a::{};", "use a;").
Proof. vm_compute. reflexivity. Qed.
Example w_kidempty_passes :
  (render w_kidempty, render (N15 w_kidempty), render (N15 (N15 w_kidempty)))
  = ("use a::self::{self::{}};", "use a::self;", "use a;").
Proof. vm_compute. reflexivity. Qed.

(* normalize_idem_anycmp_refuted *)
Example w_list_passes :
  (render w_list, render (normalize cmp_gt w_list), render (normalize cmp_gt (normalize cmp_gt w_list)))
  = ("use a::{b, c};", "use a::{c, b};", "use a::{b, c};").
Proof. vm_compute. reflexivity. Qed.

(* regroup_idem_item_refuted *)
Example w_chain_cmt_passes :
  (render w_chain_cmt, renders (S15 Item [w_chain_cmt]), renders (S15 Item (S15 Item [w_chain_cmt])))
  = ("use a::{!b::self::self, c};", ["use a::{!b::self, c};"], ["use a::{!b, c};"]).
Proof. vm_compute. reflexivity. Qed.

(* regroup_idem_module_refuted *)
Example w_dup_module_passes :
  (renders w_dup_module, renders (S15 Module w_dup_module),
   renders (S15 Module (S15 Module w_dup_module)))
  = (["use a::b::c;"; "use a::b::d;"; "use a::b::c;"], ["use a::b::{c, c, d};"], ["use a::b::{c, d};"]).
Proof. vm_compute. reflexivity. Qed.
Example w_dup_module_pipeline :
  (map renders (P15 Module false true w_dup_module),
   map renders (P15 Module false true (concat (P15 Module false true w_dup_module))))
  = ([["use a::b::{c, c, d};"]], [["use a::b::{c, d};"]]).
Proof. vm_compute. reflexivity. Qed.

(* regroup_idem_crate_refuted *)
Example w_dup_crate_passes :
  (renders w_dup_crate, renders (S15 GCrate w_dup_crate), renders (S15 GCrate (S15 GCrate w_dup_crate)),
   renders (S15 One w_dup_crate), renders (S15 One (S15 One w_dup_crate)))
  = (["use b;"; "use b::{self, a};"], ["use b::{self, self, a};"], ["use b::{self, a};"],
     ["use b::{self, self, a};"], ["use b::{self, a};"]).
Proof. vm_compute. reflexivity. Qed.

(* regroup_idem_crate_bare_self_refuted *)
Example w_bare_self_passes :
  (renders w_bare_self, renders (S15 GCrate w_bare_self), renders (S15 GCrate (S15 GCrate w_bare_self)))
  = (["use {self, a};"], ["use self;"; "use a;"], ["use ;"; "use a;"]).
Proof. vm_compute. reflexivity. Qed.
(* the emptied tree is kept in the model (rewrite_reorderable_or_regroupable_items prints nothing for it) *)

(* regroup_idem_one_refuted *)
Example w_order_one_passes :
  (renders w_order_one, renders (S15 One w_order_one), renders (S15 One (S15 One w_order_one)),
   renders (S15 One (S15 One (S15 One w_order_one))))
  = (["use a::b;"; "use a::b::c;"; "use a;"], ["use a::{self, b, b::c};"],
     ["use a::{self, b::{self, c}};"], ["use a::{self, b::{self, c}};"]).
Proof. vm_compute. reflexivity. Qed.
(* Crate keeps  b  and  b::c  apart and is stable on the same input *)
Example w_order_one_crate :
  (renders (S15 GCrate w_order_one), renders (S15 GCrate (S15 GCrate w_order_one)))
  = (["use a::{self, b, b::c};"], ["use a::{self, b, b::c};"]).
Proof. vm_compute. reflexivity. Qed.

(* more inputs of the DuplicateImport class, as observed on the model *)
Example dup_self_list_crate :
  let ts := [U "a::{self, b::{}}"] in
  (renders (S15 GCrate ts), renders (S15 GCrate (S15 GCrate ts)),
   renders (S15 GCrate (S15 GCrate (S15 GCrate ts))))
  = (["use a::{self, self};"], ["use a::self;"], ["use a;"]).
Proof. vm_compute. reflexivity. Qed.
(* use a::{self, self, c};  is stable under every granularity in the model: Preserve and Module keep the
   duplicate, Crate and One remove it in the first pass *)
Example self_self_c :
  let ts := [U "a::{self, self, c}"] in
  map (fun g => (renders (S15 g ts), renders (S15 g (S15 g ts)))) [Preserve; Item; Module; GCrate; One]
  = [(["use a::{self, self, c};"], ["use a::{self, self, c};"]);
     (["use a::{self};"; "use a::c;"], ["use a::{self};"; "use a::c;"]);
     (["use a::{self, self, c};"], ["use a::{self, self, c};"]);
     (["use a::{self, c};"], ["use a::{self, c};"]);
     (["use a::{self, c};"], ["use a::{self, c};"])].
Proof. vm_compute. reflexivity. Qed.

(* ------------------------------------------------------------------ *)
(* (2) non-vacuity *)

(* normalize_idem: a tree on which normalize does all its adjustments (sole list spliced, foo::self,
   self as alias, sorting), meeting nested_ok and self_ok *)
Definition t_norm : tree :=
  U "std::{io::{self, Read}, fmt::{Display as D}, collections::{hash_map::self as hm, BTreeMap}, cell::self}".
Example t_norm_hyps : ast_shape t_norm = true /\ nested_ok t_norm = true /\ self_ok t_norm = true.
Proof. vm_compute. repeat split. Qed.
Example t_norm_once :
  render (N15 t_norm)
  = "use std::{cell, collections::{hash_map as hm, BTreeMap}, fmt::Display as D, io::{self, Read}};".
Proof. vm_compute. reflexivity. Qed.
Example t_norm_changes : N15 t_norm <> t_norm.
Proof. vm_compute. intros H; discriminate H. Qed.
Example t_norm_twice : N15 (N15 t_norm) = N15 t_norm.
Proof. apply normalize_idem; [exact cmp15_gt_asym|vm_compute; reflexivity|vm_compute; reflexivity]. Qed.
(* a path with  self  in the middle or doubled before the end is inside the hypothesis *)
Example t_mid_self :
  self_ok (U "a::self::self::b") = true /\ N15 (N15 (U "a::self::self::b")) = N15 (U "a::self::self::b").
Proof. vm_compute. split; reflexivity. Qed.

(* GtAsym: cmp15 is an instance, and it is not a vacuous order *)
Example cmp15_orders : cmp15 (U "a") (U "b") = Lt /\ cmp15 (U "b") (U "a") = Gt /\ cmp15 (U "a as x") (U "a") = Eq.
Proof. vm_compute. repeat split. Qed.

(* regroup_idem_preserve / pipeline_idem_preserve *)
Definition run1 : list tree :=
  [U "std::io::{self, Read}"; U "crate::x::{b, a}"; U "z::{y}"; U "std::fmt::self"; U "a::self as q"].
Example run1_hyps : forallb ast_shape run1 = true /\ forallb idem_ok run1 = true.
Proof. vm_compute. split; reflexivity. Qed.
Example run1_preserve :
  renders (S15 Preserve run1)
  = ["use std::io::{self, Read};"; "use crate::x::{a, b};"; "use z::y;"; "use std::fmt;"; "use a as q;"].
Proof. vm_compute. reflexivity. Qed.
Example run1_preserve_twice : S15 Preserve (S15 Preserve run1) = S15 Preserve run1.
Proof.
  apply (regroup_idem_preserve cmp15 run1); [exact cmp15_gt_asym|vm_compute; reflexivity|apply Permutation.Permutation_refl].
Qed.
Example run1_pipeline :
  map renders (P15 Preserve true true run1)
  = [["use std::fmt;"; "use std::io::{self, Read};"]; ["use a as q;"; "use z::y;"]; ["use crate::x::{a, b};"]].
Proof. vm_compute. reflexivity. Qed.
Example run1_pipeline_twice :
  P15 Preserve true true (concat (P15 Preserve true true run1)) = P15 Preserve true true run1.
Proof. apply pipeline_idem_preserve; [exact cmp15_gt_asym|vm_compute; reflexivity]. Qed.

(* regroup_idem_item / pipeline_idem_item: item_ok is strictly weaker than idem_ok (a self chain
   without comment is repaired by Item), duplicates and trailing self are handled *)
Definition run2 : list tree :=
  [U "a::{b::self::self, c}"; U "std::io::{self, Read}"; U "a::c"; U "a::{!d, e}"].
Example run2_hyps :
  forallb ast_shape run2 = true /\ forallb item_ok run2 = true /\ forallb idem_ok run2 = false.
Proof. vm_compute. repeat split. Qed.
Example run2_item :
  renders (S15 Item run2)
  = ["use a::b::{self};"; "use a::c;"; "use std::io::{self};"; "use std::io::Read;"; "use a::{!d, e};"].
Proof. vm_compute. reflexivity. Qed.
Example run2_item_twice : S15 Item (S15 Item run2) = S15 Item run2.
Proof.
  apply (regroup_idem_item cmp15 run2); [exact cmp15_gt_asym|vm_compute; reflexivity|apply Permutation.Permutation_refl].
Qed.
Example run2_pipeline_twice :
  forall grp reorder,
  P15 Item grp reorder (concat (P15 Item grp reorder run2)) = P15 Item grp reorder run2.
Proof. intros grp reorder. apply pipeline_idem_item; [exact cmp15_gt_asym|vm_compute; reflexivity]. Qed.

(* pipeline_idem_from_regroup for a merging granularity: its hypothesis can hold (Crate, groups and sort) *)
Definition run3 : list tree :=
  [U "std::io::Read"; U "a::c"; U "std::io::Write"; U "crate::m::x"; U "a::b::d"; U "std::fmt"].
Example run3_pipeline :
  map renders (P15 GCrate true true run3)
  = [["use std::{fmt, io::{Read, Write}};"]; ["use a::{b::d, c};"]; ["use crate::m::x;"]].
Proof. vm_compute. reflexivity. Qed.
Example run3_regroup_hyp :
  S15 GCrate (concat (P15 GCrate true true run3)) = concat (P15 GCrate true true run3).
Proof. vm_compute. reflexivity. Qed.
Example run3_pipeline_twice :
  P15 GCrate true true (concat (P15 GCrate true true run3)) = P15 GCrate true true run3.
Proof. apply pipeline_idem_from_regroup; [exact cmp15_gt_asym|exact run3_regroup_hyp]. Qed.

(* regroup_idem_module_partial / pipeline_idem_module_partial: plain flattened imports without
   repetition; lists in the input, self in a list (std::io::{self, Read}), an alias after a module
   path, a pub declaration, a declaration with attributes (#[..] use a::b::h;) and one with a nested
   comment are inside the hypotheses *)
Definition UV (v : N) (a : option N) (s : string) : tree :=
  match U s with Node p k _ _ c => Node p k (Some v) a c end.
Definition run4 : list tree :=
  [U "std::io::{self, Read}"; U "a::b::c"; U "std::{io::Write, fmt}"; U "x"; U "a::b::{self, d}";
   U "a::e as f"; UV 1 None "a::b::g"; UV 0 (Some 3%N) "a::b::h"; U "a::{b::{k}}"; U "a::{!b::m, n}";
   U "y"; U "{self, z::w}"].
Example run4_hyps :
  forallb ast_shape run4 = true /\ forallb idem_ok run4 = true /\
  forallb mod_plain (flat_list (map N15 run4)) = true /\ nodup_flat (flat_list (map N15 run4)) = true.
Proof. vm_compute. repeat split. Qed.
Example run4_module :
  renders (S15 Module run4)
  = ["use std::io::{self, Read, Write};"; "use a::b::{self, c, d, k};"; "use std::fmt;"; "use {self, x, y};";
     "use a::e as f;"; "pub use a::b::g;"; "use a::b::h;"; "use a::{!b::m, n};"; "use z::w;"].
Proof. vm_compute. reflexivity. Qed.
Example run4_module_twice : S15 Module (S15 Module run4) = S15 Module run4.
Proof.
  apply (regroup_idem_module_partial cmp15 run4);
    [exact cmp15_gt_asym|vm_compute; reflexivity|vm_compute; reflexivity|vm_compute; reflexivity|
     apply Permutation.Permutation_refl].
Qed.
Example run4_pipeline :
  map renders (P15 Module true true run4)
  = [["use std::fmt;"; "use std::io::{self, Read, Write};"];
     ["pub use a::b::g;"; "use a::b::h;"; "use a::b::{self, c, d, k};"; "use a::e as f;";
      "use a::{!b::m, n};"; "use z::w;"; "use {self, x, y};"]].
Proof. vm_compute. reflexivity. Qed.
Example run4_pipeline_twice :
  forall grp reorder,
  P15 Module grp reorder (concat (P15 Module grp reorder run4)) = P15 Module grp reorder run4.
Proof.
  intros grp reorder.
  apply pipeline_idem_module_partial; [exact cmp15_gt_asym|vm_compute; reflexivity..].
Qed.
(* the Module witness meets mod_plain: only nodup_flat fails on it *)
Example w_dup_module_hyps :
  forallb mod_plain (flat_list (map N15 w_dup_module)) = true /\
  nodup_flat (flat_list (map N15 w_dup_module)) = false.
Proof. exact dup_module_plain. Qed.
(* what mod_plain excludes: a sole {self} list and a single-segment alias; the model is still stable on
   them (observed, no theorem) *)
Example mod_plain_excludes :
  map (fun t => (render t, mod_plain t)) (flat_list (map N15 [U "a::{self}"; U "z as w"; U "a::{self, b}"]))
  = [("use a::{self};", false); ("use z as w;", false); ("use a::self;", true); ("use a::b;", true)].
Proof. vm_compute. reflexivity. Qed.
Example module_self_observed :
  let ts := [U "a::{self}"; U "a::x"; U "z as w"; U "z"; U "b::y"; U "b::{self}"] in
  (renders (S15 Module ts), renders (S15 Module (S15 Module ts)))
  = (["use a::{self, x};"; "use z as w;"; "use b::{y, {self}};"],
     ["use a::{self, x};"; "use z as w;"; "use b::{y, {self}};"]).
Proof. vm_compute. reflexivity. Qed.

(* regroup_idem_passthrough / pipeline_idem_passthrough: #[..] use a::{c, b::self};  use a::{/*c*/ d, e};
   #[..] pub use a::f;  use a::g; /*c*/  -- nothing is merged under Module, Crate, One *)
Definition run5 : list tree :=
  [UV 0 (Some 1%N) "a::{c, b::self}"; U "a::{!d, e}"; UV 1 (Some 2%N) "a::f"; U "!a::g"].
Example run5_hyps :
  forallb ast_shape run5 = true /\ forallb idem_ok run5 = true /\ forallb passthrough run5 = true.
Proof. vm_compute. repeat split. Qed.
Example run5_steps :
  map (fun g => renders (S15 g run5)) [Module; GCrate; One]
  = [["use a::{b, c};"; "use a::{!d, e};"; "pub use a::f;"; "use a::g;"];
     ["use a::{b, c};"; "use a::{!d, e};"; "pub use a::f;"; "use a::g;"];
     ["use a::{b, c};"; "use a::{!d, e};"; "pub use a::f;"; "use a::g;"]].
Proof. vm_compute. reflexivity. Qed.
Example run5_twice :
  forall g grp reorder, merging g = true ->
  P15 g grp reorder (concat (P15 g grp reorder run5)) = P15 g grp reorder run5.
Proof.
  intros g grp reorder Hg.
  apply pipeline_idem_passthrough; [exact cmp15_gt_asym|exact Hg|vm_compute; reflexivity..].
Qed.

(* Part 1 corollaries: a stable sort other than insertion sort (here: isort itself given as a black box)
   and the reordering statement on a concrete list *)
Example sort_perm_idem_instance :
  V.C11.Ord.isort N.compare [3; 1; 2]%N = [1; 2; 3]%N /\
  V.C11.Ord.isort N.compare [2; 3; 1]%N = V.C11.Ord.isort N.compare [3; 1; 2]%N.
Proof. vm_compute. split; reflexivity. Qed.
(* any_stable_sort_idem: its hypothesis is met by a sort given only through its three properties *)
Example stable_sort_instance :
  forall l : list N, V.C11.Ord.isort N.compare (V.C11.Ord.isort N.compare l) = V.C11.Ord.isort N.compare l.
Proof.
  apply (any_stable_sort_idem N N.compare (V.C11.Ord.isort N.compare) V.C11.Ord.N_compare_tp).
  intros l. split; [apply V.C11.Ord.isort_perm|]. split.
  - apply V.C11.Ord.isort_sorted. exact V.C11.Ord.N_compare_tp.
  - apply V.C11.Ord.isort_stable. exact V.C11.Ord.N_compare_tp.
Qed.
(* sort_perm_idem on a reordering of the sorted output *)
Example sort_perm_instance :
  V.C11.Ord.isort N.compare [2; 3; 1]%N = V.C11.Ord.isort N.compare [3; 1; 2]%N.
Proof.
  apply (isort_perm_idem N N.compare V.C11.Ord.N_compare_tp [3; 1; 2]%N [2; 3; 1]%N).
  - intros x y _ _ H. apply N.compare_eq_iff. exact H.
  - vm_compute. apply Permutation.Permutation_sym.
    apply (Permutation.Permutation_cons_append [2; 3]%N 1%N).
Qed.
