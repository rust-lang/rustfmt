From V Require Import Base.Text Base.Lists C10.Model C10.Lemmas.
From V Require C11.Ord C11.Model C11.Lemmas.
From Coq Require Import Permutation Sorted.
Local Open Scope nat_scope.
Local Open Scope list_scope.

Lemma isort_idem (A : Type) (cmp : A -> A -> comparison) :
  Ord.TotalPreorder cmp -> forall l : list A,
  Ord.isort cmp (Ord.isort cmp l) = Ord.isort cmp l.
Proof. intros TP l. apply Ord.sorted_isort_id, Ord.isort_sorted, TP. Qed.

Lemma isort_perm_idem (A : Type) (cmp : A -> A -> comparison) :
  Ord.TotalPreorder cmp -> forall l l' : list A,
  (forall x y, In x l -> In y l -> cmp x y = Eq -> x = y) ->
  Permutation l' (Ord.isort cmp l) -> Ord.isort cmp l' = Ord.isort cmp l.
Proof.
  intros TP l l' Hu HP. symmetry. apply (Ord.sort_unique TP); [|exact Hu].
  eapply Permutation_trans; [apply Ord.isort_perm|apply Permutation_sym, HP].
Qed.

Lemma any_stable_sort_idem (A : Type) (cmp : A -> A -> comparison) (srt : list A -> list A) :
  Ord.TotalPreorder cmp ->
  (forall l, Permutation l (srt l) /\ Ord.SortedBy cmp (srt l) /\
             Ord.StableWrt cmp l (srt l)) ->
  forall l, srt (srt l) = srt l.
Proof.
  intros TP H l.
  assert (Hs : forall k, srt k = Ord.isort cmp k).
  { intros k. destruct (H k) as [H1 [H2 H3]]. apply (Ord.any_stable_sort_agrees TP); assumption. }
  rewrite !Hs. apply isort_idem, TP.
Qed.

Lemma sort_names_idem l : C11.Model.sort_names (C11.Model.sort_names l) = C11.Model.sort_names l.
Proof. apply isort_idem. exact C11.Lemmas.vs_total_preorder. Qed.
Lemma sort_items_idem e l :
  C11.Model.sort_items e (C11.Model.sort_items e l) = C11.Model.sort_items e l.
Proof. apply isort_idem. apply C11.Lemmas.items_total_preorder. Qed.

Lemma map_fix {A} (f : A -> A) l : (forall x, In x l -> f x = x) -> map f l = l.
Proof. intros H. rewrite <- (map_id l) at 2. apply map_ext_in. exact H. Qed.
Lemma rev_nil_inv {A} (p : list A) : rev p = [] -> p = [].
Proof. intros H. apply (f_equal (@rev A)) in H. rewrite rev_involutive in H. exact H. Qed.
Lemma flat_map_single {A} (f : A -> list A) l : (forall x, In x l -> f x = [x]) -> flat_map f l = l.
Proof.
  induction l as [|x r IH]; intros H; [reflexivity|]. cbn [flat_map].
  rewrite (H x (or_introl eq_refl)), IH; [reflexivity|]. intros y Hy. apply H. right; exact Hy.
Qed.
Lemma filter_const {A} (f : A -> bool) l b :
  (forall x, In x l -> f x = b) -> filter f l = if b then l else [].
Proof.
  induction l as [|x r IH]; intros H; cbn [filter]; [destruct b; reflexivity|].
  rewrite (H x (or_introl eq_refl)), IH by (intros y Hy; apply H; right; exact Hy).
  destruct b; reflexivity.
Qed.
Lemma first_split {A} (g : A -> bool) l :
  (forall x, In x l -> g x = false) \/
  exists l1 x l2, l = l1 ++ x :: l2 /\ (forall y, In y l1 -> g y = false) /\ g x = true.
Proof.
  induction l as [|x l IH]; [left; intros x []|]. destruct (g x) eqn:E.
  - right. exists [], x, l. split; [reflexivity|]. split; [intros y []|exact E].
  - destruct IH as [H|[l1 [y [l2 [-> [H1 H2]]]]]].
    + left. intros z [<-|Hz]; auto.
    + right. exists (x :: l1), y, l2. split; [reflexivity|]. split; [|exact H2].
      intros z [<-|Hz]; auto.
Qed.
Lemma Sorted_app_l {A} (R : A -> A -> Prop) l1 l2 : Sorted R (l1 ++ l2) -> Sorted R l1.
Proof.
  induction l1 as [|x l1 IH]; cbn [app]; intros H; [constructor|].
  inversion H as [|? ? Hs Hd]; subst. constructor; [apply IH; exact Hs|].
  destruct l1; [constructor|]. cbn [app] in Hd. inversion Hd; subst. constructor; assumption.
Qed.
Lemma length_snoc_ge2 {A} (l : list A) a : l <> [] -> 2 <= length (l ++ [a]).
Proof. destruct l; [contradiction|]. rewrite app_length. cbn [length]. lia. Qed.
Lemma NoDup_app_l {A} (l1 l2 : list A) : NoDup (l1 ++ l2) -> NoDup l1.
Proof.
  induction l1 as [|x l1 IH]; cbn [app]; intros H; [constructor|].
  inversion H as [|? ? Hx Hr]; subst. constructor; [|apply IH; exact Hr].
  intros Hin. apply Hx. apply in_or_app. left; exact Hin.
Qed.

(* all that sort_by asks of cmp to return an Ord.SortedBy list (no transitivity: SortedBy
   constrains neighbours only) *)
Definition GtAsym {A : Type} (cmp : A -> A -> comparison) : Prop :=
  forall x y, cmp x y = Gt -> cmp y x <> Gt.

Section SortIdem.
Variable A : Type.
Variable cmp : A -> A -> comparison.

Lemma sort_by_isort l : sort_by cmp l = Ord.isort cmp l.
Proof.
  induction l as [|x l IH]; [reflexivity|].
  cbn [sort_by fold_right Ord.isort]. fold (sort_by cmp l). rewrite IH. reflexivity.
Qed.

Lemma sorted_sort_id l : Ord.SortedBy cmp l -> sort_by cmp l = l.
Proof. rewrite sort_by_isort. apply Ord.sorted_isort_id. Qed.

Hypothesis asym : GtAsym cmp.

Lemma insert_sorted x l : Ord.SortedBy cmp l -> Ord.SortedBy cmp (insert cmp x l).
Proof.
  induction 1 as [|y r Hs IH Hd]; cbn [insert].
  - repeat constructor.
  - destruct (cmp x y) eqn:E.
    1, 2: constructor; [constructor; assumption|constructor; unfold Ord.le_of; congruence].
    constructor; [exact IH|].
    destruct r as [|z r']; cbn [insert].
    + constructor. apply asym; exact E.
    + inversion Hd as [|? ? Hyz]; subst.
      destruct (cmp x z); constructor; try assumption; apply asym; exact E.
Qed.

Lemma sort_by_sorted l : Ord.SortedBy cmp (sort_by cmp l).
Proof.
  induction l as [|x r IH]; cbn [sort_by fold_right]; [constructor|].
  apply insert_sorted; exact IH.
Qed.

End SortIdem.

Lemma sort_by_idem {A} (cmp : A -> A -> comparison) l :
  GtAsym cmp -> sort_by cmp (sort_by cmp l) = sort_by cmp l.
Proof. intros asym. apply sorted_sort_id, sort_by_sorted, asym. Qed.

Lemma sort_by_length {A} (cmp : A -> A -> comparison) l : length (sort_by cmp l) = length l.
Proof. apply Permutation_length, sort_perm. Qed.

Lemma text_cmp_antisym a b : text_cmp b a = CompOpp (text_cmp a b).
Proof. exact (Ord.cmp_lex_antisym _ _ Ord.N_compare_tp a b). Qed.

Lemma oname_cmp_antisym a b : oname_cmp b a = CompOpp (oname_cmp a b).
Proof. destruct a, b; cbn [oname_cmp CompOpp]; try reflexivity. apply text_cmp_antisym. Qed.

(* Ord.cmp_lex_antisym with the law asked of the elements of one list only: what the
   induction on a tree provides *)
Lemma cmp_lex_antisym_in {A} (f : A -> A -> comparison) l1 :
  Forall (fun x => forall y, f y x = CompOpp (f x y)) l1 ->
  forall l2, Ord.cmp_lex f l2 l1 = CompOpp (Ord.cmp_lex f l1 l2).
Proof.
  induction 1 as [|x r Hx _ IH]; intros [|y l2]; cbn [Ord.cmp_lex CompOpp]; try reflexivity.
  rewrite (Hx y). destruct (f x y); cbn [CompOpp]; auto.
Qed.

Section OrdAntisym.
Variable U : char -> bool.
Variable M : char -> bool.

Lemma ident_cmp_antisym a b : ident_cmp U M b a = CompOpp (ident_cmp U M a b).
Proof.
  unfold ident_cmp.
  destruct (starts_upper U a), (starts_upper U b),
           (is_upper_snake_case U M a), (is_upper_snake_case U M b);
    cbn [andb negb CompOpp]; try reflexivity; apply text_cmp_antisym.
Qed.

Lemma sseg_cmp_antisym x y : sseg_cmp U M y x = CompOpp (sseg_cmp U M x y).
Proof.
  destruct x as [n1 a1|a1|a1|a1|], y as [n2 a2|a2|a2|a2|]; cbn [sseg_cmp];
    try reflexivity; try apply oname_cmp_antisym.
  rewrite (ident_cmp_antisym n1 n2).
  destruct (ident_cmp U M n1 n2); cbn [CompOpp]; try reflexivity.
  destruct a1, a2; cbn [CompOpp]; try reflexivity. apply text_cmp_antisym.
Qed.

Definition swap_res (r : comparison + (list sseg * list sseg))
  : comparison + (list sseg * list sseg) :=
  match r with inl o => inl (CompOpp o) | inr (a, b) => inr (b, a) end.

Lemma pre_cmp_antisym p1 : forall p2, pre_cmp U M p2 p1 = swap_res (pre_cmp U M p1 p2).
Proof.
  induction p1 as [|x r1 IH]; intros [|y r2]; cbn [pre_cmp swap_res]; try reflexivity.
  rewrite (sseg_cmp_antisym x y), (sseg_cmp_antisym (remove_alias x) (remove_alias y)).
  destruct (sseg_cmp U M x y), (sseg_cmp U M (remove_alias x) (remove_alias y));
    cbn [CompOpp swap_res]; try apply IH; reflexivity.
Qed.

Lemma pre_cmp_inr p1 : forall p2 a b, pre_cmp U M p1 p2 = inr (a, b) -> a = [] \/ b = [].
Proof.
  induction p1 as [|x r1 IH]; intros p2 a b H.
  - injection H as <- _. left; reflexivity.
  - destruct p2 as [|y r2]; cbn [pre_cmp] in H; [injection H as _ <-; right; reflexivity|].
    destruct (sseg_cmp U M x y), (sseg_cmp U M (remove_alias x) (remove_alias y));
      try discriminate; eapply IH; eassumption.
Qed.

Lemma tree_cmp_unfold p1 k1 v1 a1 c1 p2 k2 v2 a2 c2 :
  tree_cmp U M (Node p1 k1 v1 a1 c1) (Node p2 k2 v2 a2 c2) =
  match pre_cmp U M p1 p2 with
  | inl o => o
  | inr ([], []) =>
      match k1, k2 with
      | None, None => Eq
      | Some _, None => Gt
      | None, Some _ => Lt
      | Some l1, Some l2 => Ord.cmp_lex (tree_cmp U M) l1 l2
      end
  | inr ([], _ :: _) => match k1 with Some _ => Gt | None => Lt end
  | inr (_ :: _, _) => match k2 with Some _ => Lt | None => Gt end
  end.
Proof. reflexivity. Qed.

Lemma tree_cmp_antisym t1 : forall t2, tree_cmp U M t2 t1 = CompOpp (tree_cmp U M t1 t2).
Proof.
  induction t1 as [p v a c|p l v a c IH] using tree_ind'; intros [p2 k2 v2 a2 c2];
    rewrite !tree_cmp_unfold, (pre_cmp_antisym p p2);
    destruct (pre_cmp U M p p2) as [o|[q1 q2]] eqn:E; cbn [swap_res]; try reflexivity.
  - destruct (pre_cmp_inr _ _ _ _ E) as [->| ->].
    + destruct q2; destruct k2; reflexivity.
    + destruct q1; destruct k2; reflexivity.
  - destruct (pre_cmp_inr _ _ _ _ E) as [->| ->].
    + destruct q2; destruct k2 as [l2|]; try reflexivity. apply cmp_lex_antisym_in; exact IH.
    + destruct q1; destruct k2 as [l2|]; try reflexivity. apply cmp_lex_antisym_in; exact IH.
Qed.

Lemma tree_cmp_asym : GtAsym (tree_cmp U M).
Proof. intros x y H. rewrite tree_cmp_antisym, H. discriminate. Qed.
End OrdAntisym.

Lemma cmp15_gt_asym : GtAsym cmp15.
Proof. apply tree_cmp_asym. Qed.

(* a path that ends in  self::self  or  self as x::self : normalize pops one
   segment per pass (imports.rs:568-572 returns without looking at the new last
   segment) *)
Definition self_tail (p : list sseg) : bool :=
  match rev p with Slf None :: Slf _ :: _ => true | _ => false end.
(* false on the class SelfChain of Props.v *)
Fixpoint self_ok (t : tree) : bool :=
  match t with
  | Node p None _ _ _ => negb (self_tail p)
  | Node _ (Some l) _ _ _ => forallb self_ok l
  end.
(* nested trees as from_ast builds them (imports.rs:497): a non-empty path and no
   visibility; weaker than wf_kid (attributes are not restricted) *)
Fixpoint nested_ok (t : tree) : bool :=
  match t with
  | Node _ None _ _ _ => true
  | Node _ (Some l) _ _ _ =>
      forallb (fun x => negb (path_is_empty x) && negb (is_some (vis x)) && nested_ok x) l
  end.

Lemma wf_kids_nested_ok l p v a c :
  Forall (fun x => wf_kid x = true -> nested_ok x = true) l ->
  forallb wf_kid l = true -> nested_ok (Node p (Some l) v a c) = true.
Proof.
  intros IH H. cbn [nested_ok]. rewrite forallb_forall in *. rewrite Forall_forall in IH.
  intros x Hx. pose proof (H x Hx) as Hw.
  destruct (wf_kid_inv x Hw) as [Hv [_ [Hne _]]].
  rewrite Hne, Hv, (IH x Hx Hw). reflexivity.
Qed.
Lemma wf_kid_nested_ok t : wf_kid t = true -> nested_ok t = true.
Proof.
  induction t as [p v a c|p l v a c IH] using tree_ind'; intros H; [reflexivity|].
  cbn [wf_kid] in H. rewrite !andb_true_iff in H. apply wf_kids_nested_ok; tauto.
Qed.
Lemma ast_shape_nested_ok t : ast_shape t = true -> nested_ok t = true.
Proof.
  destruct t as [p [l|] v a c]; [|reflexivity].
  unfold ast_shape. cbn [kids]. rewrite !andb_true_iff. intros [_ H].
  apply wf_kids_nested_ok; [|exact H]. apply Forall_forall. intros x _. apply wf_kid_nested_ok.
Qed.

(* the only paths norm_simple rewrites *)
Definition ends_slf (p : list sseg) : bool :=
  match rev p with Slf _ :: _ => true | _ => false end.

Lemma norm_simple_keep p v a c : ends_slf p = false -> norm_simple p v a c = Node p None v a c.
Proof.
  unfold ends_slf, norm_simple.
  destruct (rev p) as [|[n al|al|al|al|] rq]; try discriminate; intros _;
    rewrite ?andb_false_r; reflexivity.
Qed.

Lemma norm_simple_self al a c : norm_simple [Slf al] None a c = Node [Slf al] None None a c.
Proof. unfold norm_simple. cbn [rev app]. destruct al; rewrite andb_false_r; reflexivity. Qed.

Lemma ends_slf_snoc q x : ends_slf (q ++ [x]) = match x with Slf _ => true | _ => false end.
Proof. unfold ends_slf. rewrite rev_unit. reflexivity. Qed.

Lemma norm_simple_stable p v a c :
  self_tail p = false ->
  exists q, norm_simple p v a c = Node q None v a c /\ norm_simple q v a c = Node q None v a c.
Proof.
  intros Hst. destruct (norm_simple_spec p v a c) as [q [E S]]. exists q. split; [exact E|].
  destruct S as [p|_ _|q _|q n r].
  - exact E.
  - reflexivity.
  - (* simp_self: q ++ [self] became q, which does not end in self: the tail was not  self::self *)
    apply norm_simple_keep. unfold self_tail in Hst. rewrite rev_unit in Hst. exact Hst.
  - apply norm_simple_keep, ends_slf_snoc.
Qed.

Lemma self_tail_app acc p :
  self_tail p = false -> (ends_slf acc = true -> p <> [] /\ p <> [Slf None]) ->
  self_tail (acc ++ p) = false.
Proof.
  intros Hs Hacc. unfold self_tail, ends_slf in *. rewrite rev_app_distr.
  destruct (rev p) as [|x [|y r]] eqn:E; cbn [app].
  - apply rev_nil_inv in E.
    destruct (rev acc) as [|[n al|al|al|al|] ra]; try reflexivity.
    destruct (Hacc eq_refl) as [H _]. contradiction.
  - apply rev_cons_eq in E. cbn [rev app] in E.
    destruct x as [n al|[al|]|al|al|]; try reflexivity.
    destruct (rev acc) as [|[n al|al|al|al|] ra]; try reflexivity.
    destruct (Hacc eq_refl) as [_ H]. contradiction.
  - exact Hs.
Qed.

Section NormIdem.
Variable cmp : tree -> tree -> comparison.
Hypothesis asym : GtAsym cmp.

Lemma normalize_keep p l v a c :
  l <> [] -> splice l = false -> map (normalize cmp) l = l -> sort_by cmp l = l ->
  normalize cmp (Node p (Some l) v a c) = Node p (Some l) v a c.
Proof.
  intros Hne Hsp Hfix Hsort. unfold normalize. cbn [vis attrs cmt]. rewrite norm_list.
  destruct l; [contradiction|]. rewrite Hsp, Hfix, Hsort. reflexivity.
Qed.

Lemma nested_ok_kid p l v a c k :
  nested_ok (Node p (Some l) v a c) = true -> In k l ->
  path_is_empty k = false /\ vis k = None /\ nested_ok k = true.
Proof.
  cbn [nested_ok]. rewrite forallb_forall. intros H Hk. specialize (H k Hk).
  rewrite !andb_true_iff, !negb_true_iff in H. destruct H as [[H1 H2] H3].
  destruct (vis k); [discriminate|]. auto.
Qed.
Lemma self_ok_kid p l v a c k :
  self_ok (Node p (Some l) v a c) = true -> In k l -> self_ok k = true.
Proof. cbn [self_ok]. rewrite forallb_forall. auto. Qed.

Lemma normalize_self_string k :
  is_self_string k = true -> vis k = None -> normalize cmp k = k.
Proof.
  destruct k as [p [l|] v a c]; cbn [vis]; unfold is_self_string; cbn [kids pre];
    [discriminate|]. intros H ->.
  destruct p as [|[n [al|]|al|al|al|] [|s2 p']]; try discriminate.
  - apply norm_simple_keep. reflexivity.
  - apply norm_simple_self.
Qed.

Lemma splice_normalized l :
  (forall k, In k l -> vis k = None) -> splice l = false ->
  splice (sort_by cmp (map (normalize cmp) l)) = false.
Proof.
  intros Hv Hsp. destruct l as [|k [|k2 r]]; [reflexivity| |].
  - cbn [map sort_by fold_right insert splice] in *. unfold has_comment in *.
    rewrite (proj2 (proj2 (normalize_fields cmp k))). destruct (is_self_string k) eqn:Hk.
    + rewrite (normalize_self_string k Hk (Hv k (or_introl eq_refl))), Hk. reflexivity.
    + cbn [negb andb] in Hsp. rewrite Hsp. apply andb_false_r.
  - destruct (splice (sort_by _ _)) eqn:E; [|reflexivity].
    destruct (splice_inv _ E) as [k' [E' _]]. apply (f_equal (@length tree)) in E'.
    rewrite sort_by_length, map_length in E'. discriminate.
Qed.

Lemma norm_idem_gen t : forall acc v a c,
  nested_ok t = true -> self_ok t = true ->
  (ends_slf acc = true -> is_self_string t = false /\ path_is_empty t = false) ->
  normalize cmp (norm cmp acc v a c t) = norm cmp acc v a c t.
Proof.
  induction t as [p v0 a0 c0|p l v0 a0 c0 IH] using tree_ind'; intros acc v a c Hn Hs Hacc.
  - cbn [norm kids pre].
    destruct (norm_simple_stable (acc ++ p) v a c) as [q [H1 H2]].
    { cbn [self_ok] in Hs. rewrite negb_true_iff in Hs. apply self_tail_app; [exact Hs|].
      intros H. destruct (Hacc H) as [H3 H4]. split; intros ->; discriminate. }
    rewrite H1. exact H2.
  - rewrite Forall_forall in IH. rewrite norm_list. destruct l as [|k r].
    { destruct (is_some a) eqn:Ha; [|reflexivity].
      unfold normalize. cbn [vis attrs cmt]. rewrite norm_list, Ha. reflexivity. }
    destruct (splice (k :: r)) eqn:Hsp.
    + destruct (splice_inv _ Hsp) as [k' [E [Hss _]]]. inversion E; subst k' r.
      destruct (nested_ok_kid _ _ _ _ _ k Hn (or_introl eq_refl)) as [Hne [_ Hnk]].
      apply IH; [left; reflexivity|exact Hnk|eapply self_ok_kid; eauto; left; reflexivity|auto].
    + apply normalize_keep.
      * intros E. apply (f_equal (@length tree)) in E.
        rewrite sort_by_length, map_length in E. discriminate.
      * apply splice_normalized; [|exact Hsp].
        intros x Hx. apply (nested_ok_kid _ _ _ _ _ x Hn Hx).
      * apply map_fix. intros x Hx. apply (Permutation_in _ (sort_perm _ cmp _)) in Hx.
        apply in_map_iff in Hx. destruct Hx as [y [<- Hy]].
        destruct (nested_ok_kid _ _ _ _ _ y Hn Hy) as [_ [_ Hny]].
        apply IH; [exact Hy|exact Hny|eapply self_ok_kid; eauto|discriminate].
      * apply sort_by_idem; exact asym.
Qed.

Theorem normalize_idem t :
  nested_ok t = true -> self_ok t = true ->
  normalize cmp (normalize cmp t) = normalize cmp t.
Proof. intros Hn Hs. apply norm_idem_gen; auto. discriminate. Qed.
End NormIdem.

(* one pass of reorder.rs:106-141 up to normalize_use_trees_with_granularity:
   from_ast_with_normalization on each item, then the regrouping *)
Definition step (cmp : tree -> tree -> comparison) (g : granularity) (ts : list tree) : list tree :=
  with_granularity cmp g (map (normalize cmp) ts).
Definition idem_ok (t : tree) : bool := nested_ok t && self_ok t.

Lemma idem_ok_inv t : idem_ok t = true -> nested_ok t = true /\ self_ok t = true.
Proof. unfold idem_ok. rewrite andb_true_iff. auto. Qed.

Lemma normalized_fixed cmp ts n :
  GtAsym cmp -> forallb idem_ok ts = true -> In n (map (normalize cmp) ts) -> normalize cmp n = n.
Proof.
  intros Ha H Hn. apply in_map_iff in Hn. destruct Hn as [t [<- Ht]].
  rewrite forallb_forall in H. destruct (idem_ok_inv t (H t Ht)). apply normalize_idem; auto.
Qed.

(* O': the second pass meets the first output grouped and sorted, a permutation of that of
   step (pipeline_perm) *)
Lemma regroup_idem_preserve cmp ts O' :
  GtAsym cmp -> forallb idem_ok ts = true ->
  Permutation O' (step cmp Preserve ts) -> step cmp Preserve O' = O'.
Proof.
  intros Ha H HP. unfold step in *. cbn [with_granularity] in *. apply map_fix. intros o Ho.
  apply (normalized_fixed cmp ts); auto. apply (Permutation_in _ HP Ho).
Qed.

(* nested trees carry no visibility (imports.rs:497 passes None) *)
Fixpoint novis (t : tree) : bool :=
  match t with
  | Node _ None _ _ _ => true
  | Node _ (Some l) _ _ _ => forallb (fun x => negb (is_some (vis x)) && novis x) l
  end.
(* Item flattens and re-nests every tree without comment, which repairs a
   self::self tail; only a tree that is passed through whole needs idem_ok *)
Definition item_ok (t : tree) : bool := novis t && (negb (contains_comment t) || idem_ok t).

Lemma nested_ok_novis t : nested_ok t = true -> novis t = true.
Proof.
  induction t as [p v a c|p l v a c IH] using tree_ind'; intros H; [reflexivity|].
  cbn [nested_ok novis] in *. rewrite forallb_forall in *. rewrite Forall_forall in IH.
  intros x Hx. specialize (H x Hx). rewrite !andb_true_iff in H. destruct H as [[_ H1] H2].
  rewrite H1, (IH x Hx H2). reflexivity.
Qed.
Lemma idem_ok_item_ok t : idem_ok t = true -> item_ok t = true.
Proof.
  intros H. unfold item_ok. rewrite H, orb_true_r, andb_true_r.
  apply nested_ok_novis. apply idem_ok_inv in H. tauto.
Qed.

Lemma novis_norm cmp t : forall acc v a c,
  novis t = true -> novis (norm cmp acc v a c t) = true.
Proof.
  apply (norm_ind cmp (fun _ _ _ _ t r => novis t = true -> novis r = true)).
  - intros acc v a c p _ _ _ _. destruct (norm_simple_spec (acc ++ p) v a c) as [q [-> _]]. reflexivity.
  - reflexivity.
  - intros acc v a c p k v0 a0 c0 r _ IH H. apply IH. cbn [novis forallb] in H.
    rewrite andb_true_r in H. apply andb_true_iff in H. apply H.
  - intros acc v a c p l v0 a0 c0 IH H. cbn [novis] in *. rewrite forallb_sort, forallb_map'.
    rewrite forallb_forall in *. rewrite Forall_forall in IH. intros k Hk.
    specialize (H k Hk). apply andb_true_iff in H. destruct H as [Hv Hn].
    rewrite (proj1 (normalize_fields cmp k)), Hv. apply IH; assumption.
Qed.

Definition flatk (k : option (list tree)) : bool :=
  match k with None => true | Some l => sole_self l end.

Lemma flatten_out item n : forall f,
  In f (flatten item n) ->
  (novis n = true -> novis f = true) /\
  ((f = n /\ path_is_empty n || contains_comment n = true) \/ flatk (kids f) = true).
Proof.
  induction n as [p v a c|p l v a c IH] using tree_ind'; intros f; rewrite flatten_unfold.
  - destruct (_ || _); intros [<-|[]]; (split; [auto|right; reflexivity]).
  - destruct (path_is_empty _ || contains_comment _) eqn:C; [intros [<-|[]]; auto|].
    destruct (sole_self l) eqn:S; [intros [<-|[]]; auto|].
    intros Hf. apply in_flat_map in Hf. destruct Hf as [nested [Hn Hf]].
    apply in_map_iff in Hf. destruct Hf as [f' [<- Hf']].
    rewrite Forall_forall in IH. destruct (IH nested Hn f' Hf') as [Hnv Hfl]. split.
    + intros Hnn. cbn [novis] in Hnn. rewrite forallb_forall in Hnn.
      specialize (Hnn nested Hn). apply andb_true_iff in Hnn.
      destruct f' as [q k' v' a' c']. cbn [kids pre]. rewrite <- (Hnv (proj2 Hnn)).
      destruct k'; reflexivity.
    + right. cbn [kids]. destruct Hfl as [[-> Hc]|Hk]; [|exact Hk].
      apply orb_false_iff in C. destruct C as [_ C]. rewrite contains_comment_eq in C.
      apply orb_false_iff in C. destruct C as [_ C]. unfold kids_comment in C. cbn [kids] in C.
      assert (Hcc : contains_comment nested = false).
      { destruct (contains_comment nested) eqn:E; [|reflexivity].
        rewrite <- C. symmetry. apply existsb_exists. exists nested; auto. }
      rewrite Hcc, orb_false_r in Hc.
      destruct nested as [[|s q] [l'|] v' a' c']; try discriminate. reflexivity.
Qed.

Lemma flatten_self item f : flatk (kids f) = true -> flatten item f = [f].
Proof.
  destruct f as [p [l|] v a c]; cbn [kids flatk]; intros H; rewrite flatten_unfold.
  - rewrite H. destruct (_ || _); reflexivity.
  - destruct (_ || _); reflexivity.
Qed.

Lemma flatten_nest item f :
  flatten item f = [f] -> flatten item (nest_trailing_self f) = [nest_trailing_self f].
Proof.
  destruct f as [p [l|] v a c]; cbn [nest_trailing_self]; [auto|]. intros H.
  destruct (rev p) as [|[n al|al|al|al|] rq]; try exact H.
  rewrite flatten_unfold. destruct (_ || _); reflexivity.
Qed.

Lemma normalize_selflist cmp q al a' c' v a c :
  normalize cmp (Node q (Some [Node [Slf al] None None a' c']) v a c) =
  Node q (Some [Node [Slf al] None None a' c']) v a c.
Proof.
  unfold normalize. cbn [vis attrs cmt norm kids pre is_self_string negb andb app].
  rewrite norm_simple_self. reflexivity.
Qed.

Lemma sole_self_inv l :
  sole_self l = true -> exists al v a c, l = [Node [Slf al] None v a c].
Proof.
  destruct l as [|[[|[n al|al|al|al|] [|s p]] [k|] v a c] [|t tl]]; try discriminate. eauto.
Qed.

Lemma normalize_flat cmp f :
  flatk (kids f) = true -> novis f = true ->
  normalize cmp (nest_trailing_self f) = nest_trailing_self f.
Proof.
  destruct f as [p [l|] v a c]; cbn [kids flatk]; intros Hk Hn.
  - destruct (sole_self_inv l Hk) as [al [v' [a' [c' ->]]]].
    cbn [novis forallb vis] in Hn. destruct v'; [discriminate|]. apply normalize_selflist.
  - cbn [nest_trailing_self]. destruct (rev p) as [|last rq] eqn:E.
    + apply rev_nil_inv in E. subst p. reflexivity.
    + destruct last as [n al|al|al|al|];
        try (apply norm_simple_keep; unfold ends_slf; rewrite E; reflexivity).
      cbn [from_path of_path split_path]. apply normalize_selflist.
Qed.

(* the lists that itertools unique() (unique_aux) leaves alone; tree_eqb takes the later tree
   first, as the test of unique_aux does *)
Definition udist (l : list tree) : Prop := ForallOrdPairs (fun x y => tree_eqb y x = false) l.

Lemma unique_aux_dist l : forall s,
  Forall (fun y => existsb (tree_eqb y) s = false) (unique_aux s l) /\ udist (unique_aux s l).
Proof.
  induction l as [|x r IH]; intros s; cbn [unique_aux].
  - split; constructor.
  - destruct (existsb (tree_eqb x) s) eqn:E; [apply IH|].
    destruct (IH (x :: s)) as [H1 H2]. split.
    + constructor; [exact E|]. eapply Forall_impl; [|exact H1].
      intros y Hy. cbn [existsb] in Hy. apply orb_false_iff in Hy. tauto.
    + constructor; [|exact H2]. eapply Forall_impl; [|exact H1].
      intros y Hy. cbn [existsb] in Hy. apply orb_false_iff in Hy. tauto.
Qed.

Lemma udist_fix l : forall s,
  udist l -> Forall (fun y => existsb (tree_eqb y) s = false) l -> unique_aux s l = l.
Proof.
  induction l as [|x r IH]; intros s Hd Hs; [reflexivity|].
  inversion Hd as [|? ? Hx Hr]; subst. inversion Hs as [|? ? Hsx Hsr]; subst.
  cbn [unique_aux]. rewrite Hsx. f_equal. apply IH; [exact Hr|].
  rewrite Forall_forall in *. intros y Hy. cbn [existsb].
  rewrite (Hx y Hy), (Hsr y Hy). reflexivity.
Qed.

Lemma udist_perm l1 l2 : Permutation l1 l2 -> udist l1 -> udist l2.
Proof.
  unfold udist.
  induction 1 as [|x l l' HP IH|x y l|l l' l'' _ IH1 _ IH2]; intros H; auto.
  - inversion H as [|? ? Hx Hl]; subst. constructor; [|apply IH; exact Hl].
    rewrite Forall_forall in *. intros z Hz. apply Hx. eapply Permutation_in; [|exact Hz].
    apply Permutation_sym; exact HP.
  - inversion H as [|? ? Hy Hr]; subst. inversion Hr as [|? ? Hx Hl]; subst.
    inversion Hy as [|? ? Hyx Hyl]; subst.
    constructor; [constructor; [rewrite tree_eqb_sym; exact Hyx|exact Hx]|].
    constructor; assumption.
Qed.

Lemma item_elem cmp t f :
  GtAsym cmp -> item_ok t = true -> In f (flatten true (normalize cmp t)) ->
  let o := nest_trailing_self f in
  normalize cmp o = o /\ flatten true o = [o] /\ nest_trailing_self o = o.
Proof.
  intros Ha Hok Hf o. unfold item_ok in Hok. apply andb_true_iff in Hok. destruct Hok as [Hnv Hc].
  assert (Hnn : novis (normalize cmp t) = true) by (apply novis_norm; exact Hnv).
  destruct (flatten_out _ _ _ Hf) as [Hnf Hcase]. specialize (Hnf Hnn).
  split; [|split; [apply flatten_nest|apply nest_trailing_self_idem]].
  - destruct Hcase as [[-> Hcc]|Hk]; [|apply normalize_flat; assumption].
    destruct (kids (normalize cmp t)) as [l|] eqn:Ek;
      [|apply normalize_flat; [rewrite Ek; reflexivity|exact Hnn]].
    (* the whole tree was kept, with its list: it contains a comment, so idem_ok t *)
    subst o. destruct (normalize cmp t) as [q k v a c] eqn:En. cbn [kids] in Ek. subst k.
    cbn [nest_trailing_self]. rewrite <- En.
    assert (Hcc' : contains_comment t = true).
    { rewrite <- (contains_comment_normalize cmp t), En. rewrite path_is_empty_some in Hcc.
      exact Hcc. }
    rewrite Hcc' in Hc. destruct (idem_ok_inv t Hc). apply normalize_idem; auto.
  - destruct Hcase as [[-> Hcc]|Hk]; [|apply flatten_self; exact Hk].
    destruct (normalize cmp t) as [q k v a c]. rewrite flatten_unfold, Hcc. reflexivity.
Qed.

Lemma regroup_idem_item cmp ts O' :
  GtAsym cmp -> forallb item_ok ts = true ->
  Permutation O' (step cmp Item ts) -> step cmp Item O' = O'.
Proof.
  intros Ha H HP. unfold step in *. cbn [with_granularity] in *. unfold flatten_use_trees in *.
  set (I := map nest_trailing_self (flat_map (flatten true) (map (normalize cmp) ts))) in *.
  assert (He : forall o, In o O' ->
             normalize cmp o = o /\ flatten true o = [o] /\ nest_trailing_self o = o).
  { intros o Ho. apply (Permutation_in _ HP) in Ho. apply unique_aux_incl in Ho.
    unfold I in Ho. apply in_map_iff in Ho. destruct Ho as [f [<- Hf]].
    apply in_flat_map in Hf. destruct Hf as [n [Hn Hf]].
    apply in_map_iff in Hn. destruct Hn as [t [<- Ht]].
    rewrite forallb_forall in H. apply (item_elem cmp t f Ha (H t Ht) Hf). }
  rewrite (map_fix (normalize cmp) O') by (intros o Ho; apply (He o Ho)).
  rewrite (flat_map_single (flatten true) O') by (intros o Ho; apply (He o Ho)).
  rewrite (map_fix nest_trailing_self O') by (intros o Ho; apply (He o Ho)).
  apply udist_fix; [|apply Forall_forall; reflexivity].
  eapply udist_perm; [apply Permutation_sym; exact HP|]. apply unique_aux_dist.
Qed.

Definition in_group (k : nat) (t : tree) : bool := Nat.eqb (group_of t) k.
(* the sort that reorder_imports switches on *)
Definition sort_if cmp (reorder : bool) (l : list tree) : list tree :=
  if reorder then sort_by cmp l else l.
Definition grp_out cmp (reorder : bool) (k : nat) (O : list tree) : list tree :=
  sort_if cmp reorder (filter (in_group k) O).

Lemma sort_if_idem cmp reorder l :
  GtAsym cmp -> sort_if cmp reorder (sort_if cmp reorder l) = sort_if cmp reorder l.
Proof. intros asym. destruct reorder; [apply sort_by_idem, asym|reflexivity]. Qed.

Lemma grp_out_filter cmp reorder j k O :
  filter (in_group k) (grp_out cmp reorder j O) = if Nat.eqb j k then grp_out cmp reorder j O else [].
Proof.
  apply filter_const. intros x Hx. unfold in_group. f_equal.
  assert (H : In x (filter (in_group j) O)).
  { unfold grp_out, sort_if in Hx. destruct reorder; [apply (Permutation_in _ (sort_perm _ cmp _))|]; exact Hx. }
  apply filter_In in H. apply Nat.eqb_eq, H.
Qed.

Lemma pipeline_groups cmp g grp reorder ts :
  pipeline cmp g grp reorder ts =
  filter (fun l => negb (is_nil l))
    (if grp then [grp_out cmp reorder 0 (step cmp g ts); grp_out cmp reorder 1 (step cmp g ts);
                  grp_out cmp reorder 2 (step cmp g ts)]
     else [sort_if cmp reorder (step cmp g ts)]).
Proof. unfold pipeline, step, grp_out, sort_if, group_imports, in_group. destruct grp, reorder; reflexivity. Qed.

Lemma pipeline_idem_from_regroup (cmp : tree -> tree -> comparison) (g : granularity)
      (grp reorder : bool) (ts : list tree) :
  GtAsym cmp ->
  step cmp g (concat (pipeline cmp g grp reorder ts)) = concat (pipeline cmp g grp reorder ts) ->
  pipeline cmp g grp reorder (concat (pipeline cmp g grp reorder ts)) = pipeline cmp g grp reorder ts.
Proof.
  intros asym Hst. rewrite (pipeline_groups cmp g grp reorder (concat _)), Hst.
  rewrite (pipeline_groups cmp g grp reorder ts), concat_filter_nonnil.
  set (O := step cmp g ts). apply f_equal. destruct grp; cbn [concat]; rewrite app_nil_r.
  - (* group k of the concatenated groups is group k, sorted once more *)
    assert (Hk : forall k, k < 3 ->
              grp_out cmp reorder k
                      (grp_out cmp reorder 0 O ++ grp_out cmp reorder 1 O ++ grp_out cmp reorder 2 O)
              = grp_out cmp reorder k O).
    { intros k Hk. unfold grp_out at 1. rewrite !filter_app, !grp_out_filter.
      destruct k as [|[|[|k]]]; try lia; cbn [Nat.eqb app]; rewrite ?app_nil_r;
        apply sort_if_idem, asym. }
    rewrite !Hk by lia. reflexivity.
  - rewrite sort_if_idem by exact asym. reflexivity.
Qed.

Lemma pipeline_idem_stable cmp g grp reorder ts :
  GtAsym cmp -> (forall O', Permutation O' (step cmp g ts) -> step cmp g O' = O') ->
  pipeline cmp g grp reorder (concat (pipeline cmp g grp reorder ts)) =
  pipeline cmp g grp reorder ts.
Proof. intros Ha H. apply pipeline_idem_from_regroup, H, pipeline_perm. exact Ha. Qed.

Lemma pipeline_idem_preserve cmp grp reorder ts :
  GtAsym cmp -> forallb idem_ok ts = true ->
  pipeline cmp Preserve grp reorder (concat (pipeline cmp Preserve grp reorder ts)) =
  pipeline cmp Preserve grp reorder ts.
Proof. intros Ha H. apply pipeline_idem_stable; [exact Ha|]. intros O'. apply regroup_idem_preserve; assumption. Qed.
Lemma pipeline_idem_item cmp grp reorder ts :
  GtAsym cmp -> forallb item_ok ts = true ->
  pipeline cmp Item grp reorder (concat (pipeline cmp Item grp reorder ts)) =
  pipeline cmp Item grp reorder ts.
Proof. intros Ha H. apply pipeline_idem_stable; [exact Ha|]. intros O'. apply regroup_idem_item; assumption. Qed.

(* q::x  and  q::{L}  under the visibility v, and an item of L *)
Definition seg_kid (x : sseg) : tree := Node [x] None None None false.
Definition plain (q : list sseg) (x : sseg) (v : option N) : tree := Node (q ++ [x]) None v None false.
Definition listed (q : list sseg) (L : list tree) (v : option N) : tree := Node q (Some L) v None false.
Definition is_slf (s : sseg) : bool := match s with Slf _ => true | _ => false end.
(* an import of a single segment must have no alias: merge matches two first segments by
   equal_except_alias (sseg_eea; the AliasClash class of C10) *)
Definition okseg (q : list sseg) (x : sseg) : bool :=
  negb (is_nil q) || negb (is_some (salias x)).

Lemma path_plain q x v : path (plain q x v) = map GS q ++ [GS x].
Proof. unfold path. cbn [plain pre kids klist]. rewrite map_app, app_nil_r. reflexivity. Qed.

Lemma merge_plain_plain cmp q x y v v' :
  sseg_eqb x y = false -> (q = [] -> sseg_eea x y = false) ->
  merge cmp SPModule (plain q x v) (plain q y v') = listed q (sort_by cmp [seg_kid x; seg_kid y]) v.
Proof.
  intros Hne Hea. apply (merge_diverge cmp SPModule _ None _ _ _ _ q [GS x] [GS y]);
    try discriminate.
  - apply path_plain.
  - apply path_plain.
  - cbn [prefix_len eea gseg_eqb]. rewrite Hne, orb_false_r.
    destruct q; cbn [is_nil andb]; [rewrite Hea by reflexivity|]; reflexivity.
Qed.

Lemma inner_choice_module_push L u :
  Forall (fun t => path_len t = 1) L -> inner_choice SPModule L u = CPush.
Proof.
  intros HL. unfold inner_choice. rewrite andb_false_r.
  destruct (last_max 0 None _) as [[i k]|] eqn:E; [|reflexivity].
  apply last_max_spec in E. destruct E as [E|[_ E]]; [discriminate|].
  apply nth_error_map' in E. destruct E as [t [Ht E]].
  destruct (share_prefix t u SPModule); [|discriminate]. inversion E; subst k.
  rewrite Forall_forall in HL. rewrite (HL t (nth_error_In _ _ Ht)). reflexivity.
Qed.

Lemma merge_listed_plain cmp q L y v v' :
  Forall (fun t => path_len t = 1) L ->
  merge cmp SPModule (listed q L v) (plain q y v') = listed q (sort_by cmp (L ++ [seg_kid y])) v.
Proof.
  intros HL. unfold listed at 1.
  rewrite (merge_diverge cmp SPModule q (Some L) _ _ _ _ q [GL L] [GS y]); try discriminate.
  - rewrite Nat.eqb_refl. unfold merge_use_trees_inner, inner_with.
    rewrite (inner_choice_module_push L _ HL). reflexivity.
  - reflexivity.
  - apply path_plain.
  - cbn [prefix_len eea gseg_eqb]. rewrite andb_false_r. reflexivity.
Qed.

Definition mkey (r : tree) : N * list sseg := (vnorm (vis r), path_init r).
Definition keyof (r : tree) : list (N * list sseg) :=
  if passthrough r || path_is_empty r then [] else [mkey r].
Definition keys (res : list tree) : list (N * list sseg) := flat_map keyof res.

Lemma share_module r f :
  share_prefix r f SPModule = true <->
  passthrough r = false /\ path_is_empty r = false /\ path_is_empty f = false /\ mkey r = mkey f.
Proof.
  unfold share_prefix, passthrough, mkey, same_visibility.
  destruct (_ || _ || _ || _ || negb _) eqn:C.
  - split; [discriminate|]. intros [H1 [H2 [H3 H4]]]. inversion H4 as [[Hv Hp]].
    apply orb_false_iff in H1. destruct H1 as [Hc Ha].
    rewrite H2, H3, Ha, Hc, Hv, N.eqb_refl in C. discriminate.
  - rewrite !orb_false_iff, negb_false_iff, N.eqb_eq in C. destruct C as [[[[C1 C2] C3] C4] C5].
    rewrite C1, C2, C3, C4, C5. split.
    + intros H. apply list_eqb_sseg_eq in H. rewrite H. auto.
    + intros [_ [_ [_ H]]]. inversion H. apply list_eqb_sseg_refl.
Qed.

Lemma in_keys k res :
  In k (keys res) <->
  exists r, In r res /\ passthrough r = false /\ path_is_empty r = false /\ mkey r = k.
Proof.
  unfold keys. rewrite in_flat_map. split.
  - intros [r [Hr Hk]]. exists r. unfold keyof in Hk.
    destruct (passthrough r), (path_is_empty r); cbn [orb] in Hk; try contradiction.
    destruct Hk as [Hk|[]]. auto.
  - intros [r [Hr [H1 [H2 H3]]]]. exists r. split; [exact Hr|].
    unfold keyof. rewrite H1, H2. left; exact H3.
Qed.

Lemma keyof_nonpass r :
  passthrough r = false -> path_is_empty r = false -> keyof r = [mkey r].
Proof. intros H1 H2. unfold keyof. rewrite H1, H2. reflexivity. Qed.

Lemma no_share res f :
  ~ In (mkey f) (keys res) -> forall r, In r res -> share_prefix r f SPModule = false.
Proof.
  intros Hk r Hr. destruct (share_prefix r f SPModule) eqn:E; [|reflexivity].
  apply share_module in E. destruct E as [H1 [H2 [_ H3]]]. exfalso. apply Hk.
  apply in_keys. exists r. auto.
Qed.
Lemma no_key res f :
  path_is_empty f = false -> (forall r, In r res -> share_prefix r f SPModule = false) ->
  ~ In (mkey f) (keys res).
Proof.
  intros He Hns Hin. apply in_keys in Hin. destruct Hin as [r [Hr [H1 [H2 H3]]]].
  specialize (Hns r Hr). rewrite (proj2 (share_module r f)) in Hns; [discriminate|auto].
Qed.

(* what Module makes of the imports  q::x, x in xs;  a sole  self  is nested, as by
   nest_trailing_self *)
Definition bucket (q xs : list sseg) (v : option N) : tree :=
  match xs with
  | [x] => if is_slf x then listed q [seg_kid x] v else plain q x v
  | _ => listed q (map seg_kid xs) v
  end.
Definition import_paths (r : tree) : list (list sseg) :=
  match r with
  | Node p None _ _ _ => [p]
  | Node q (Some L) _ _ _ => map (fun t => q ++ pre t) L
  end.
Definition entries_of (r : tree) : list (N * list sseg) :=
  if passthrough r then [] else map (pair (vnorm (vis r))) (import_paths r).
Definition entries (res : list tree) : list (N * list sseg) := flat_map entries_of res.
Definition entry (f : tree) : N * list sseg := (vnorm (vis f), pre f).

Lemma plain_facts q x v :
  passthrough (plain q x v) = false /\ path_is_empty (plain q x v) = false /\
  mkey (plain q x v) = (vnorm v, q).
Proof.
  unfold plain, passthrough, mkey, path_init, path_is_empty. cbn [contains_comment attrs is_some orb kids pre vis].
  rewrite removelast_last. repeat split. destruct q; reflexivity.
Qed.
Lemma seg_kids_no_comment xs : existsb contains_comment (map seg_kid xs) = false.
Proof. induction xs as [|x xs IH]; cbn [map existsb]; [reflexivity|]. rewrite IH. reflexivity. Qed.
Lemma listed_facts q xs v :
  passthrough (listed q (map seg_kid xs) v) = false /\ path_is_empty (listed q (map seg_kid xs) v) = false /\
  mkey (listed q (map seg_kid xs) v) = (vnorm v, q).
Proof.
  unfold listed, passthrough, mkey, path_init, path_is_empty.
  cbn [contains_comment attrs is_some orb kids pre vis]. rewrite seg_kids_no_comment.
  repeat split. destruct q; reflexivity.
Qed.
Lemma bucket_facts q xs v :
  passthrough (bucket q xs v) = false /\ path_is_empty (bucket q xs v) = false /\
  mkey (bucket q xs v) = (vnorm v, q).
Proof.
  destruct xs as [|x [|x2 r]]; [apply (listed_facts q [])| |apply listed_facts].
  unfold bucket. destruct (is_slf x); [apply (listed_facts q [x])|apply plain_facts].
Qed.
Lemma bucket_ge2 q xs v : 2 <= length xs -> bucket q xs v = listed q (map seg_kid xs) v.
Proof. destruct xs as [|x [|x2 r]]; cbn [length]; try lia. reflexivity. Qed.
Lemma entries_of_bucket q xs v : entries_of (bucket q xs v) = map (fun x => (vnorm v, q ++ [x])) xs.
Proof.
  unfold entries_of. destruct (bucket_facts q xs v) as [-> _].
  destruct xs as [|x [|x2 r]]; [reflexivity| |].
  - unfold bucket. destruct (is_slf x); reflexivity.
  - unfold bucket, listed. cbn [vis import_paths]. rewrite !map_map. reflexivity.
Qed.

Lemma keyof_bucket q xs v : keyof (bucket q xs v) = [(vnorm v, q)].
Proof. destruct (bucket_facts q xs v) as [Hp [He <-]]. apply keyof_nonpass; assumption.
Qed.
Lemma keys_mid l1 r l2 : keys (l1 ++ r :: l2) = keys l1 ++ keyof r ++ keys l2.
Proof. unfold keys. rewrite flat_map_app. reflexivity. Qed.
Lemma entries_mid l1 r l2 : entries (l1 ++ r :: l2) = entries l1 ++ entries_of r ++ entries l2.
Proof. unfold entries. rewrite flat_map_app. reflexivity. Qed.

Lemma nest_plain q x v : nest_trailing_self (plain q x v) = bucket q [x] v.
Proof.
  unfold plain, bucket. cbn [nest_trailing_self]. rewrite rev_unit.
  destruct x; try reflexivity. rewrite rev_involutive. reflexivity.
Qed.

Lemma flatten_listed q xs v :
  2 <= length xs ->
  flatten false (listed q (map seg_kid xs) v) = map (fun x => plain q x v) xs.
Proof.
  intros Hl. destruct (listed_facts q xs v) as [Hp [He _]].
  unfold listed in *. rewrite flatten_unfold, He.
  unfold passthrough in Hp. apply orb_false_iff in Hp. destruct Hp as [Hc _]. rewrite Hc.
  cbn [orb].
  assert (Hs : sole_self (map seg_kid xs) = false).
  { destruct xs as [|a [|b r]]; cbn [length] in Hl; try lia. destruct a; reflexivity. }
  rewrite Hs. clear. induction xs as [|x xs IH]; [reflexivity|].
  cbn [map flat_map]. rewrite IH. reflexivity.
Qed.

Lemma okseg_inv q x : okseg q x = true -> q = [] -> salias x = None.
Proof.
  unfold okseg. intros H2 ->. cbn [is_nil negb orb] in H2.
  destruct (salias x); [discriminate|reflexivity].
Qed.

Lemma seg_kids_path_len xs : Forall (fun t => path_len t = 1) (map seg_kid xs).
Proof. apply Forall_map, Forall_forall. intros x _. reflexivity. Qed.

Lemma merge_bucket cmp q xs y v v' :
  NoDup (xs ++ [y]) -> forallb (okseg q) (xs ++ [y]) = true ->
  merge cmp SPModule (bucket q xs v) (plain q y v') = listed q (sort_by cmp (map seg_kid (xs ++ [y]))) v.
Proof.
  intros Hnd Hok. rewrite map_app. cbn [map].
  destruct xs as [|x [|x2 r]]; [apply (merge_listed_plain cmp q []); constructor| |apply merge_listed_plain, seg_kids_path_len].
  unfold bucket. destruct (is_slf x); [apply (merge_listed_plain cmp q [seg_kid x]), (seg_kids_path_len [x])|].
  cbn [app forallb] in *. rewrite !andb_true_iff in Hok. destruct Hok as [Hx [Hy _]].
  assert (Hxy : sseg_eqb x y = false).
  { destruct (sseg_eqb x y) eqn:E; [|reflexivity]. apply sseg_eqb_eq in E. subst y.
    inversion Hnd as [|? ? Hin _]. exfalso. apply Hin. left; reflexivity. }
  apply merge_plain_plain; [exact Hxy|]. intros Hq.
  rewrite sseg_eea_noalias; [exact Hxy|eapply okseg_inv; eauto|eapply okseg_inv; eauto].
Qed.

Section ModuleNF.
Variable cmp : tree -> tree -> comparison.

Inductive mkind : tree -> Prop :=
| MK_pass t : passthrough t = true -> normalize cmp t = t -> mkind t
| MK_bucket q xs v :
    xs <> [] -> forallb (okseg q) xs = true -> NoDup xs ->
    Ord.SortedBy cmp (map seg_kid xs) -> mkind (bucket q xs v).

Lemma normalize_seg_kid x : normalize cmp (seg_kid x) = seg_kid x.
Proof. destruct x; try (apply norm_simple_keep; reflexivity). apply norm_simple_self. Qed.

Lemma normalize_listed q xs v :
  2 <= length xs -> Ord.SortedBy cmp (map seg_kid xs) ->
  normalize cmp (listed q (map seg_kid xs) v) = listed q (map seg_kid xs) v.
Proof.
  intros Hl Hs. apply normalize_keep.
  - destruct xs; [cbn [length] in Hl; lia|discriminate].
  - destruct xs as [|a [|b r]]; cbn [length] in Hl; try lia. reflexivity.
  - rewrite map_map. apply map_ext, normalize_seg_kid.
  - apply sorted_sort_id; exact Hs.
Qed.

Lemma mkind_normalize o : mkind o -> normalize cmp o = o.
Proof.
  intros [t _ H|q xs v Hne Hok Hnd Hs]; [exact H|].
  destruct xs as [|x [|x2 r]]; [contradiction| |apply normalize_listed; [cbn [length]; lia|exact Hs]].
  rewrite <- nest_plain. apply normalize_flat; reflexivity.
Qed.

(* done: the last segments added back so far; rest: those still to add *)
Lemma fold_bucket res q v : forall rest done,
  done <> [] -> ~ In (vnorm v, q) (keys res) ->
  NoDup (done ++ rest) -> forallb (okseg q) (done ++ rest) = true ->
  Ord.SortedBy cmp (map seg_kid (done ++ rest)) ->
  fold_left (add_flattened cmp SPModule) (map (fun x => plain q x v) rest) (res ++ [bucket q done v]) =
  res ++ [bucket q (done ++ rest) v].
Proof.
  induction rest as [|y rest IH]; intros done Hne Hk Hnd Hok Hs; cbn [map fold_left].
  - rewrite app_nil_r. reflexivity.
  - replace (done ++ y :: rest) with ((done ++ [y]) ++ rest) in * by (rewrite <- app_assoc; reflexivity).
    destruct (bucket_facts q done v) as [F1 [F2 F3]]. destruct (plain_facts q y v) as [_ [G2 G3]].
    rewrite add_flattened_hit.
    + rewrite merge_bucket; [|apply NoDup_app_l in Hnd; exact Hnd|].
      * rewrite sorted_sort_id by (rewrite map_app in Hs; apply Sorted_app_l in Hs; exact Hs).
        rewrite <- bucket_ge2 by (apply length_snoc_ge2; exact Hne).
        apply IH; auto. destruct done; discriminate.
      * rewrite forallb_app in Hok. apply andb_true_iff in Hok. tauto.
    + apply no_share. rewrite G3. exact Hk.
    + apply share_module. rewrite F3, G3. auto.
Qed.

Lemma add_tree_fix res o :
  mkind o -> (passthrough o = false -> ~ In (mkey o) (keys res)) ->
  add_tree cmp SPModule res o = res ++ [o].
Proof.
  intros [t Hp _|q xs v Hne Hok Hnd Hs] Hk; unfold add_tree.
  { unfold passthrough in Hp. rewrite Hp. reflexivity. }
  destruct (bucket_facts q xs v) as [F1 [_ F3]]. specialize (Hk F1).
  unfold passthrough in F1. rewrite F1. clear F1.
  destruct xs as [|x [|x2 r]]; [contradiction| |].
  - rewrite <- nest_plain, flatten_nest by (apply flatten_self; reflexivity). cbn [fold_left].
    rewrite add_flattened_new, nest_trailing_self_idem; [reflexivity|]. apply no_share.
    rewrite nest_plain. exact Hk.
  - rewrite F3 in Hk. change (bucket q (x :: x2 :: r) v) with (listed q (map seg_kid (x :: x2 :: r)) v) at 1.
    rewrite flatten_listed by (cbn [length]; lia). cbn [map fold_left].
    rewrite (add_flattened_new cmp SPModule res (plain q x v)), nest_plain.
    + apply (fold_bucket res q v (x2 :: r) [x]); auto. discriminate.
    + apply no_share. destruct (plain_facts q x v) as [_ [_ ->]]. exact Hk.
Qed.

Lemma regroup_fix_gen O : forall res,
  Forall mkind O -> NoDup (keys (res ++ O)) ->
  fold_left (add_tree cmp SPModule) O res = res ++ O.
Proof.
  induction O as [|o O IH]; intros res Hk Hnd; cbn [fold_left].
  - rewrite app_nil_r. reflexivity.
  - inversion Hk as [|? ? Ho HO]; subst. rewrite add_tree_fix.
    + rewrite IH; [rewrite <- app_assoc; reflexivity|exact HO|].
      rewrite <- app_assoc. exact Hnd.
    + exact Ho.
    + intros Hp Hin. rewrite keys_mid, keyof_nonpass in Hnd.
      * apply NoDup_remove_2 in Hnd. apply Hnd, in_or_app. left; exact Hin.
      * exact Hp.
      * destruct Ho as [t Hpt _|q xs v Hne _ _ _]; [congruence|apply bucket_facts].
Qed.

Lemma module_nf_fix O :
  Forall mkind O -> NoDup (keys O) -> step cmp Module O = O.
Proof.
  intros Hk Hnd. unfold step. cbn [with_granularity].
  rewrite (map_fix (normalize cmp)).
  - unfold regroup. apply (regroup_fix_gen O []); assumption.
  - intros o Ho. apply mkind_normalize. rewrite Forall_forall in Hk. auto.
Qed.
End ModuleNF.

Definition flat_dup (x y : tree) : bool :=
  same_visibility x y && list_eqb sseg_eqb (pre x) (pre y).
Fixpoint nodup_flat (l : list tree) : bool :=
  match l with
  | [] => true
  | x :: r => negb (existsb (flat_dup x) r) && nodup_flat r
  end.
(* the path may end in self: flatten turns  std::io::{self, Read}  into  std::io::self  and
   std::io::Read *)
Definition mod_plain (f : tree) : bool :=
  match f with
  | Node p None _ None false =>
      match rev p with x :: rq => okseg (rev rq) x | [] => false end
  | _ => false
  end.
Definition flats (es : list ev) : list tree :=
  flat_map (fun e => match e with EFlat f => [f] | EPass _ => [] end) es.

Lemma mod_plain_inv f :
  mod_plain f = true -> exists q y v, f = plain q y v /\ okseg q y = true.
Proof.
  destruct f as [p [l|] v [a|] [|]]; cbn [mod_plain]; try discriminate.
  destruct (rev p) as [|x rq] eqn:E; [discriminate|]. intros H.
  apply rev_cons_eq in E. subst p. exists (rev rq), x, v. split; [reflexivity|exact H].
Qed.

Lemma nodup_flat_sound l : nodup_flat l = true -> NoDup (map entry l).
Proof.
  induction l as [|x r IH]; cbn [nodup_flat map]; [constructor|].
  rewrite andb_true_iff, negb_true_iff. intros [H1 H2]. constructor; [|apply IH; exact H2].
  intros Hin. apply in_map_iff in Hin. destruct Hin as [y [Ey Hy]].
  assert (E : existsb (flat_dup x) r = true); [|congruence].
  apply existsb_exists. exists y. split; [exact Hy|]. inversion Ey as [[Ev Ep]].
  unfold flat_dup, same_visibility. rewrite Ev, Ep, N.eqb_refl. apply list_eqb_sseg_refl.
Qed.

Section ModuleRun.
Variable cmp : tree -> tree -> comparison.

Definition MInv (res : list tree) : Prop := Forall (mkind cmp) res /\ NoDup (keys res).
Definition ev_okm (e : ev) : Prop :=
  match e with
  | EPass t => passthrough t = true /\ normalize cmp t = t
  | EFlat f => mod_plain f = true
  end.

Lemma merge_mkind q xs y v v' :
  GtAsym cmp -> xs <> [] -> forallb (okseg q) xs = true -> NoDup xs ->
  okseg q y = true -> ~ In y xs ->
  exists xs', merge cmp SPModule (bucket q xs v) (plain q y v') = bucket q xs' v /\
              Permutation (xs ++ [y]) xs' /\ mkind cmp (bucket q xs' v).
Proof.
  intros Ha Hne Hok Hnd Hoy Hy.
  assert (Hok' : forallb (okseg q) (xs ++ [y]) = true)
    by (rewrite forallb_app; cbn [forallb]; rewrite Hok, Hoy; reflexivity).
  pose proof (NoDup_snoc xs y Hnd Hy) as Hnd'.
  rewrite merge_bucket by assumption.
  destruct (Permutation_map_inv seg_kid _ (sort_perm _ cmp (map seg_kid (xs ++ [y])))) as [xs' [E HP]].
  pose proof (length_snoc_ge2 xs y Hne) as Hl. rewrite (Permutation_length HP) in Hl.
  exists xs'. rewrite E, <- bucket_ge2 by exact Hl.
  split; [reflexivity|]. split; [exact HP|]. apply MK_bucket.
  - intros ->. cbn [length] in Hl. lia.
  - rewrite <- (forallb_perm _ _ _ HP). exact Hok'.
  - apply (Permutation_NoDup HP Hnd').
  - rewrite <- E. apply sort_by_sorted. exact Ha.
Qed.

Lemma add_flattened_plain res f :
  GtAsym cmp -> MInv res -> mod_plain f = true -> ~ In (entry f) (entries res) ->
  MInv (add_flattened cmp SPModule res f) /\
  forall e, In e (entries (add_flattened cmp SPModule res f)) -> e = entry f \/ In e (entries res).
Proof.
  intros Ha [Hk Hnd] Hp Hfr. destruct (mod_plain_inv f Hp) as [q [y [vf [-> Hoy]]]].
  destruct (plain_facts q y vf) as [_ [Fe Fm]].
  destruct (first_split (fun t => share_prefix t (plain q y vf) SPModule) res)
    as [Hns|[l1 [r [l2 [-> [Hl1 Hsh]]]]]].
  - (* no tree of res has the key of f: a new normal form at the end *)
    rewrite add_flattened_new, nest_plain by exact Hns.
    unfold MInv. rewrite keys_mid, keyof_bucket. cbn [keys flat_map app].
    split; [split|].
    + apply Forall_app. split; [exact Hk|]. constructor; [|constructor].
      apply MK_bucket; [discriminate|cbn [forallb]; rewrite Hoy; reflexivity| |];
        repeat constructor. intros [].
    + apply NoDup_snoc; [exact Hnd|]. rewrite <- Fm. apply no_key; assumption.
    + intros e He. rewrite entries_mid, entries_of_bucket in He.
      apply in_app_or in He. destruct He as [He|[<-|[]]]; auto.
  - (* r: the first tree with the key of f; y joins its last segments *)
    rewrite add_flattened_hit by assumption.
    apply share_module in Hsh. destruct Hsh as [Rp [Re [_ Rm]]]. rewrite Fm in Rm.
    apply Forall_app in Hk. destruct Hk as [K1 K2]. inversion K2 as [|? ? Hr K3]; subst.
    destruct Hr as [t Hpt _|q' xs v Hne Hok Hndx Hs]; [congruence|].
    destruct (bucket_facts q' xs v) as [_ [_ Gm]]. rewrite Gm in Rm. inversion Rm as [[Hv Hq]].
    subst q'. clear Rm Gm.
    rewrite keys_mid, keyof_bucket in Hnd.
    rewrite entries_mid, entries_of_bucket, !in_app_iff, in_map_iff in Hfr.
    assert (Hent : (vnorm v, q ++ [y]) = entry (plain q y vf)) by (unfold entry; cbn [plain vis pre]; congruence).
    destruct (merge_mkind q xs y v vf Ha Hne Hok Hndx Hoy) as [xs' [-> [HP Hm]]].
    { intros Hy. apply Hfr. right. left. exists y. auto. }
    unfold MInv. rewrite keys_mid, keyof_bucket. split; [split|].
    + apply Forall_app. split; [exact K1|]. constructor; assumption.
    + exact Hnd.
    + intros e. rewrite !entries_mid, !entries_of_bucket, !in_app_iff, !in_map_iff.
      intros [He|[[z [<- Hz]]|He]]; auto.
      apply (Permutation_in _ (Permutation_sym HP)), in_app_iff in Hz.
      destruct Hz as [Hz|[<-|[]]]; [|left; exact Hent].
      (* z was a last segment of r *) right. right. left. exists z. auto.
Qed.

Lemma module_run es : forall res,
  GtAsym cmp -> MInv res -> Forall ev_okm es -> NoDup (map entry (flats es)) ->
  (forall f, In f (flats es) -> ~ In (entry f) (entries res)) ->
  MInv (fold_left (add_ev cmp SPModule) es res).
Proof.
  induction es as [|e es IH]; intros res Ha Hinv Hes Hnd Hfr; cbn [fold_left]; [exact Hinv|].
  inversion Hes as [|? ? He Hes']; subst.
  destruct e as [t|f]; cbn [add_ev ev_okm flats flat_map app map] in *.
  - destruct He as [Hp Hn]. destruct Hinv as [Hk Hk']. apply IH; auto.
    + unfold MInv. rewrite keys_mid. unfold keyof. rewrite Hp, !app_nil_r.
      split; [|exact Hk']. apply Forall_app. split; [exact Hk|]. repeat constructor; assumption.
    + rewrite entries_mid. unfold entries_of. rewrite Hp, !app_nil_r. exact Hfr.
  - fold (flats es) in *. inversion Hnd as [|? ? Hf Hnd']; subst.
    destruct (add_flattened_plain res f Ha Hinv He (Hfr f (or_introl eq_refl))) as [Hinv' Hent].
    apply IH; auto. intros f2 Hf2 Hin. destruct (Hent _ Hin) as [E|Hin'].
    + apply Hf. rewrite <- E. apply in_map. exact Hf2.
    + apply (Hfr f2); [right; exact Hf2|exact Hin'].
Qed.

Lemma flats_events ns : flats (flat_map events ns) = flat_list ns.
Proof.
  induction ns as [|n ns IH]; [reflexivity|]. cbn [flat_map]. unfold flats in *. rewrite flat_map_app, IH.
  unfold flat_list at 2. cbn [flat_map]. f_equal. unfold events.
  destruct (contains_comment n || is_some (attrs n)); [reflexivity|].
  induction (flatten false n) as [|x l IHl]; [reflexivity|]. cbn [map flat_map app]. rewrite IHl. reflexivity.
Qed.
Lemma events_okm ns :
  (forall n, In n ns -> normalize cmp n = n) -> forallb mod_plain (flat_list ns) = true ->
  Forall ev_okm (flat_map events ns).
Proof.
  intros Hn Hp. apply Forall_flat_map, Forall_forall. intros n Hin. unfold events.
  destruct (contains_comment n || is_some (attrs n)) eqn:E.
  - constructor; [|constructor]. split; [exact E|apply Hn; exact Hin].
  - apply Forall_map, Forall_forall. intros f Hf. rewrite forallb_forall in Hp. apply Hp.
    apply in_flat_map. exists n. rewrite E. auto.
Qed.

Lemma regroup_idem_module_partial ts O' :
  GtAsym cmp -> forallb idem_ok ts = true ->
  forallb mod_plain (flat_list (map (normalize cmp) ts)) = true ->
  nodup_flat (flat_list (map (normalize cmp) ts)) = true ->
  Permutation O' (step cmp Module ts) -> step cmp Module O' = O'.
Proof.
  intros Ha Hok Hpl Hnd HP.
  assert (Hinv : MInv (step cmp Module ts)).
  { unfold step. cbn [with_granularity]. rewrite regroup_events. apply module_run.
    - exact Ha.
    - split; constructor.
    - apply events_okm; [|exact Hpl]. intros n Hn. apply (normalized_fixed cmp ts); assumption.
    - rewrite flats_events. apply nodup_flat_sound. exact Hnd.
    - intros f _ []. }
  destruct Hinv as [Hk Hn]. apply module_nf_fix.
  - exact (Permutation_Forall (Permutation_sym HP) Hk).
  - eapply Permutation_NoDup; [|exact Hn]. unfold keys.
    apply Permutation_flat_map. apply Permutation_sym. exact HP.
Qed.
End ModuleRun.

Lemma pipeline_idem_module_partial cmp grp reorder ts :
  GtAsym cmp -> forallb idem_ok ts = true ->
  forallb mod_plain (flat_list (map (normalize cmp) ts)) = true ->
  nodup_flat (flat_list (map (normalize cmp) ts)) = true ->
  pipeline cmp Module grp reorder (concat (pipeline cmp Module grp reorder ts)) =
  pipeline cmp Module grp reorder ts.
Proof.
  intros Ha H1 H2 H3. apply pipeline_idem_stable; [exact Ha|].
  intros O'. apply regroup_idem_module_partial; assumption.
Qed.

(* Module, Crate, One on a run in which every declaration has attributes or a comment:
   nothing is flattened or merged (imports.rs:229-232) *)
Definition merging (g : granularity) : bool :=
  match g with Module | GCrate | One => true | _ => false end.

Lemma fold_add_pass cmp m ts : forall res,
  forallb passthrough ts = true -> fold_left (add_tree cmp m) ts res = res ++ ts.
Proof.
  induction ts as [|t ts IH]; intros res H; cbn [fold_left].
  - rewrite app_nil_r. reflexivity.
  - cbn [forallb] in H. apply andb_true_iff in H. destruct H as [Ht Hts].
    unfold add_tree at 2. unfold passthrough in Ht. rewrite Ht.
    rewrite IH by exact Hts. rewrite <- app_assoc. reflexivity.
Qed.

Lemma with_granularity_merging cmp g ts :
  merging g = true -> forallb passthrough ts = true -> with_granularity cmp g ts = ts.
Proof.
  destruct g; try discriminate; intros _ H; cbn [with_granularity]; apply (fold_add_pass _ _ ts [] H).
Qed.

Theorem regroup_idem_passthrough cmp g ts O' :
  GtAsym cmp -> merging g = true ->
  forallb idem_ok ts = true -> forallb passthrough ts = true ->
  Permutation O' (step cmp g ts) -> step cmp g O' = O'.
Proof.
  intros Ha Hg Hok Hp HP.
  assert (Hpn : forallb passthrough (map (normalize cmp) ts) = true).
  { rewrite forallb_forall in *. intros n Hn. apply in_map_iff in Hn. destruct Hn as [t [<- Ht]].
    rewrite passthrough_normalize. apply Hp; exact Ht. }
  unfold step in HP. rewrite (with_granularity_merging cmp g _ Hg Hpn) in HP.
  unfold step. rewrite (regroup_idem_preserve cmp ts O' Ha Hok HP : map (normalize cmp) O' = O').
  apply with_granularity_merging; [exact Hg|]. rewrite (forallb_perm _ _ _ HP). exact Hpn.
Qed.

Lemma pipeline_idem_passthrough cmp g grp reorder ts :
  GtAsym cmp -> merging g = true ->
  forallb idem_ok ts = true -> forallb passthrough ts = true ->
  pipeline cmp g grp reorder (concat (pipeline cmp g grp reorder ts)) = pipeline cmp g grp reorder ts.
Proof.
  intros Ha Hg H1 H2. apply pipeline_idem_stable; [exact Ha|].
  intros O'. apply regroup_idem_passthrough; assumption.
Qed.

(* not GtAsym: sort_by cmp_gt reverses the list *)
Definition cmp_gt (_ _ : tree) : comparison := Gt.

(* Examples.v prints the witnesses as the use texts quoted here *)
Definition sa := id1 97. Definition sb := id1 98. Definition sc := id1 99. Definition sd := id1 100.
Definition leaf_c (p : list sseg) : tree := Node p None None None true.

(* use a::self::self; *)
Definition w_chain : tree := top [sa; Slf None; Slf None] None 0 None.
(* a nested  self  that carries a visibility (from_ast never builds it) *)
Definition w_kidvis : tree := top [sa] (Some [Node [Slf None] None (Some 1%N) None false]) 0 None.
(* a::self::{self::{<empty path>}}  (from_ast never builds it) *)
Definition w_kidempty : tree :=
  top [sa; Slf None] (Some [kid [Slf None] (Some [kid [] None])]) 0 None.
(* use a::{b, c}; *)
Definition w_list : tree := top [sa] (Some [kid [sb] None; kid [sc] None]) 0 None.
(* use a::{b::self::self /* c */, c}; *)
Definition w_chain_cmt : tree := top [sa] (Some [leaf_c [sb; Slf None; Slf None]; kid [sc] None]) 0 None.
(* use a::b::c; use a::b::d; use a::b::c; *)
Definition w_dup_module : list tree :=
  [top [sa; sb; sc] None 0 None; top [sa; sb; sd] None 0 None; top [sa; sb; sc] None 0 None].
(* use b; use b::{self, a}; *)
Definition w_dup_crate : list tree :=
  [top [sb] None 0 None; top [sb] (Some [kid [Slf None] None; kid [sa] None]) 0 None].
(* use a::b; use a::b::c; use a; *)
Definition w_order_one : list tree :=
  [top [sa; sb] None 0 None; top [sa; sb; sc] None 0 None; top [sa] None 0 None].
(* use {self, a}; *)
Definition w_bare_self : list tree := [top [] (Some [kid [Slf None] None; kid [sa] None]) 0 None].

Fixpoint nodupb (l : list leaf) : bool :=
  match l with [] => true | x :: r => negb (existsb (leaf_eqb x) r) && nodupb r end.
Lemma nodupb_sound l : nodupb l = true -> NoDup l.
Proof.
  induction l as [|x r IH]; cbn [nodupb]; [constructor|].
  rewrite andb_true_iff, negb_true_iff. intros [H1 H2]. constructor; [|apply IH; exact H2].
  intros Hin. assert (existsb (leaf_eqb x) r = true) as E; [|congruence].
  apply existsb_exists. exists x. split; [exact Hin|apply leaf_eqb_refl].
Qed.

Definition twice_differs (g : granularity) (ts : list tree) : Prop :=
  step cmp15 g (step cmp15 g ts) <> step cmp15 g ts.
Definition pipeline_twice_differs (g : granularity) (ts : list tree) : Prop :=
  forall grp reorder,
    pipeline cmp15 g grp reorder (concat (pipeline cmp15 g grp reorder ts)) <>
    pipeline cmp15 g grp reorder ts.

Ltac differs := vm_compute; let H := fresh in intros H; discriminate H.
Ltac pdiffers := intros grp reorder; destruct grp, reorder; differs.

Lemma normalize_idem_refuted :
  exists t, ast_shape t = true /\ nested_ok t = true /\ self_ok t = false /\
    normalize cmp15 (normalize cmp15 t) <> normalize cmp15 t.
Proof. exists w_chain. split; [reflexivity|]. split; [reflexivity|]. split; [reflexivity|differs]. Qed.
Lemma normalize_idem_nested_refuted :
  (exists t, self_ok t = true /\ no_empty_kid t = true /\ nested_ok t = false /\
     normalize cmp15 (normalize cmp15 t) <> normalize cmp15 t) /\
  (exists t, self_ok t = true /\ novis t = true /\ nested_ok t = false /\
     normalize cmp15 (normalize cmp15 t) <> normalize cmp15 t).
Proof.
  split.
  - exists w_kidvis. split; [reflexivity|]. split; [reflexivity|]. split; [reflexivity|differs].
  - exists w_kidempty. split; [reflexivity|]. split; [reflexivity|]. split; [reflexivity|differs].
Qed.
Lemma normalize_idem_anycmp_refuted :
  exists cmp t, ast_shape t = true /\ idem_ok t = true /\
    normalize cmp (normalize cmp t) <> normalize cmp t.
Proof. exists cmp_gt, w_list. split; [reflexivity|]. split; [reflexivity|differs]. Qed.
Lemma regroup_idem_selfchain_refuted :
  exists ts, forallb ast_shape ts = true /\
    twice_differs Preserve ts /\ twice_differs GCrate ts /\ twice_differs One ts /\
    pipeline_twice_differs Preserve ts /\ pipeline_twice_differs GCrate ts /\
    pipeline_twice_differs One ts.
Proof.
  exists [w_chain]. split; [reflexivity|]. split; [differs|]. split; [differs|]. split; [differs|].
  split; [pdiffers|]. split; pdiffers.
Qed.
Lemma regroup_idem_item_refuted :
  exists ts, forallb ast_shape ts = true /\ forallb item_ok ts = false /\
    twice_differs Item ts /\ pipeline_twice_differs Item ts.
Proof. exists [w_chain_cmt]. split; [reflexivity|]. split; [reflexivity|]. split; [differs|pdiffers]. Qed.
Lemma regroup_idem_crate_refuted :
  exists ts, forallb ast_shape ts = true /\ forallb idem_ok ts = true /\
    BadClass cmp15 GCrate ts = false /\ BadClass cmp15 One ts = false /\
    twice_differs GCrate ts /\ pipeline_twice_differs GCrate ts /\
    twice_differs One ts /\ pipeline_twice_differs One ts.
Proof.
  exists w_dup_crate. split; [reflexivity|]. split; [reflexivity|]. split; [reflexivity|]. split; [reflexivity|].
  split; [differs|]. split; [pdiffers|]. split; [differs|pdiffers].
Qed.
Lemma regroup_idem_crate_bare_self_refuted :
  exists ts, forallb ast_shape ts = true /\ forallb idem_ok ts = true /\
    BadClass cmp15 GCrate ts = false /\ NoDup (Leaves ts) /\
    twice_differs GCrate ts /\ pipeline_twice_differs GCrate ts.
Proof.
  exists w_bare_self. split; [reflexivity|]. split; [reflexivity|]. split; [reflexivity|].
  split; [apply nodupb_sound; reflexivity|]. split; [differs|pdiffers].
Qed.
Lemma regroup_idem_one_refuted :
  exists ts, forallb ast_shape ts = true /\ forallb idem_ok ts = true /\
    forallb noalias ts = true /\ BadClass cmp15 One ts = false /\ NoDup (Leaves ts) /\
    twice_differs One ts /\ pipeline_twice_differs One ts.
Proof.
  exists w_order_one. split; [reflexivity|]. split; [reflexivity|]. split; [reflexivity|]. split; [reflexivity|].
  split; [apply nodupb_sound; reflexivity|]. split; [differs|pdiffers].
Qed.

(* the Module witness is plain: only the repetition is outside the hypotheses *)
Lemma dup_module_plain :
  forallb mod_plain (flat_list (map (normalize cmp15) w_dup_module)) = true /\
  nodup_flat (flat_list (map (normalize cmp15) w_dup_module)) = false.
Proof. vm_compute. split; reflexivity. Qed.

Lemma regroup_idem_module_refuted :
  exists ts, forallb ast_shape ts = true /\ forallb idem_ok ts = true /\
    BadClass cmp15 Module ts = false /\
    forallb mod_plain (flat_list (map (normalize cmp15) ts)) = true /\
    twice_differs Module ts /\ pipeline_twice_differs Module ts.
Proof.
  exists w_dup_module. split; [reflexivity|]. split; [reflexivity|]. split; [reflexivity|].
  split; [apply dup_module_plain|]. split; [differs|pdiffers].
Qed.
