From Coq Require Import Permutation.
From V Require Import Base.Text Base.Lists C01.Model.
Open Scope N_scope.
Open Scope list_scope.
Arguments N.add : simpl never.
Arguments N.sub : simpl never.
Arguments N.mul : simpl never.
Arguments N.ltb : simpl never.
Arguments N.leb : simpl never.
Arguments N.eqb : simpl never.

Section ItemInd.
Variable P : item -> Prop.
Hypothesis HTok : forall s, P (Tok s).
Hypothesis HGrp : forall d its, Forall P its -> P (Grp d its).
Fixpoint item_ind' (x : item) : P x :=
  match x with
  | Tok s => HTok s
  | Grp d its =>
      HGrp d its ((fix go (l : list item) : Forall P l :=
                     match l with
                     | [] => Forall_nil P
                     | y :: l' => Forall_cons y (item_ind' y) (go l')
                     end) its)
  end.
End ItemInd.

Lemma list_ind2 {A : Type} (P : list A -> Prop) :
  P [] -> (forall x, P [x]) -> (forall x y l, P l -> P (y :: l) -> P (x :: y :: l)) -> forall l, P l.
Proof.
  intros H0 H1 H2 l.
  assert (H : P l /\ forall x, P (x :: l)).
  { induction l as [|y l IH].
    - split; [exact H0|exact H1].
    - destruct IH as [IHa IHb]. split; [apply IHb|]. intros x. apply H2; [exact IHa|apply IHb]. }
  exact (proj1 H).
Qed.

(* the loops below go on with the rest of the input or with the rest less one or two items *)
Lemma tails_ind {A : Type} (P : list A -> Prop) :
  P [] -> (forall x l, (forall k, P (skipn k l)) -> P (x :: l)) -> forall l, P l.
Proof.
  intros H0 H1 l. change (P (skipn 0 l)). generalize 0%nat.
  induction l as [|x l IH]; intros k.
  - destruct k; exact H0.
  - destruct k as [|k]; [apply H1, IH|apply IH].
Qed.

Lemma app_eq_two {A : Type} (a b : list A) x y :
  a ++ b = [x; y] -> (a = [] /\ b = [x; y]) \/ (a = [x] /\ b = [y]) \/ (a = [x; y] /\ b = []).
Proof.
  destruct a as [|a1 [|a2 [|a3 a]]]; cbn [app]; intros H.
  - left. auto.
  - right. left. inversion H. auto.
  - right. right. inversion H. auto.
  - inversion H.
Qed.

Lemma app_cons_assoc {A : Type} (P : list A) x l : (P ++ [x]) ++ l = P ++ x :: l.
Proof. rewrite <- app_assoc. reflexivity. Qed.
Lemma rev_cons_app {A : Type} (x : A) out l : rev (x :: out) ++ l = rev out ++ x :: l.
Proof. cbn [rev]. apply app_cons_assoc. Qed.
Lemma match_rev {A B : Type} (l : list A) (b1 b2 : B) :
  match rev l with [] => b1 | _ :: _ => b2 end = match l with [] => b1 | _ :: _ => b2 end.
Proof. destruct l as [|x l]; [reflexivity|]. cbn [rev]. destruct (rev l); reflexivity. Qed.
Lemma flat_map_rev_cons {A B : Type} (f : A -> list B) x out : flat_map f (rev (x :: out)) = flat_map f (rev out) ++ f x.
Proof. cbn [rev]. rewrite flat_map_app. cbn [flat_map]. apply f_equal, app_nil_r. Qed.
Lemma Forall_removelast {A : Type} (P : A -> Prop) l : Forall P l -> Forall P (removelast l).
Proof.
  induction l as [|x l IH]; intros H; [constructor|].
  inversion H as [|? ? Hx Hl]; subst. cbn [removelast]. destruct l; [constructor|].
  constructor; [exact Hx|apply IH; exact Hl].
Qed.
Lemma rev_not_nil {A : Type} (l : list A) : l <> [] -> rev l <> [].
Proof. intros H Hr. exact (H (rev_eq_app l [] [] Hr)). Qed.
Lemma exists_in_snoc {A : Type} (Q : A -> Prop) l e :
  (exists x, In x (l ++ [e]) /\ Q x) <-> (exists x, In x l /\ Q x) \/ Q e.
Proof.
  split.
  - intros [x [Hx HQ]]. apply in_app_or in Hx as [Hx|[<- |[]]]; [left; exists x; auto|right; exact HQ].
  - intros [[x [Hx HQ]]|HQ].
    + exists x. split; [apply in_or_app; left; exact Hx|exact HQ].
    + exists e. split; [apply in_or_app; right; left; reflexivity|exact HQ].
Qed.
Lemma nodup_fst_unique {A B : Type} (cs : list (A * B)) h a b :
  NoDup (map fst cs) -> In (h, a) cs -> In (h, b) cs -> a = b.
Proof.
  induction cs as [|[h0 x] cs IH]; cbn [map fst In]; intros Hd Ha Hb; [contradiction|].
  inversion Hd as [|? ? Hn Hd']; subst.
  destruct Ha as [Ha|Ha], Hb as [Hb|Hb].
  - congruence.
  - inversion Ha; subst. exfalso. apply Hn. apply in_map_iff. exists (h, b). auto.
  - inversion Hb; subst. exfalso. apply Hn. apply in_map_iff. exists (h, a). auto.
  - apply IH; assumption.
Qed.
Lemma Forall2_map_r {A B : Type} (R : A -> B -> Prop) f l : Forall (fun x => R x (f x)) l -> Forall2 R l (map f l).
Proof. intros H. induction H; cbn [map]; constructor; assumption. Qed.
Lemma Forall2_map_map {A B C : Type} (R : B -> C -> Prop) (f : A -> B) (g : A -> C) l :
  Forall (fun x => R (f x) (g x)) l -> Forall2 R (map f l) (map g l).
Proof. intros H. induction H; cbn [map]; constructor; assumption. Qed.
Lemma Forall2_len {A B : Type} (R : A -> B -> Prop) l1 l2 : Forall2 R l1 l2 -> length l1 = length l2.
Proof. intros H. induction H; cbn [length]; [reflexivity|f_equal; assumption]. Qed.

Lemma Sub_refl {A : Type} (l : list A) : Sub l l.
Proof. induction l; constructor; assumption. Qed.
Lemma Sub_nil_l {A : Type} (l : list A) : Sub [] l.
Proof. induction l; constructor; assumption. Qed.
Lemma Sub_app {A : Type} (a1 a2 b1 b2 : list A) : Sub a1 a2 -> Sub b1 b2 -> Sub (a1 ++ b1) (a2 ++ b2).
Proof. intros H. induction H; intros Hb; cbn [app]; [exact Hb|constructor; auto|constructor; auto]. Qed.
Lemma Sub_skip_app {A : Type} (p a b : list A) : Sub a b -> Sub a (p ++ b).
Proof. intros H. induction p; cbn [app]; [exact H|constructor; assumption]. Qed.
Lemma Sub_trans {A : Type} (a b c : list A) : Sub a b -> Sub b c -> Sub a c.
Proof.
  intros H1 H2. revert a H1. induction H2 as [|x l1 l2 _ IH|x l1 l2 _ IH]; intros a H1.
  - exact H1.
  - inversion H1 as [|y a1 b1 Ha|y a1 b1 Ha]; subst; [apply Sub_keep|apply Sub_skip]; apply IH; exact Ha.
  - apply Sub_skip. apply IH. exact H1.
Qed.
Lemma Sub_flat_map {A B : Type} (f : A -> list B) a b : Sub a b -> Sub (flat_map f a) (flat_map f b).
Proof.
  intros H. induction H as [|x l1 l2 _ IH|x l1 l2 _ IH]; cbn [flat_map].
  - constructor.
  - apply Sub_app; [apply Sub_refl|exact IH].
  - apply Sub_skip_app. exact IH.
Qed.
Lemma Sub_filter {A : Type} (p : A -> bool) a b : Sub a b -> Sub (filter p a) (filter p b).
Proof.
  intros H. induction H as [|x l1 l2 _ IH|x l1 l2 _ IH]; cbn [filter].
  - constructor.
  - destruct (p x); [apply Sub_keep|]; exact IH.
  - destruct (p x); [apply Sub_skip|]; exact IH.
Qed.
Lemma Sub_ess_md a b : Sub a b -> Sub (ess_md a) (ess_md b).
Proof. intros H. unfold ess_md, unglue. apply Sub_filter, Sub_flat_map. exact H. Qed.

Lemma is_tok_true x s : is_tok x s = true -> x = Tok s.
Proof.
  destruct x as [t|d its]; cbn [is_tok]; [|discriminate].
  intros H. apply eqb_text_spec in H. subst t. reflexivity.
Qed.
Lemma is_tok_andb x s b : is_tok x s && b = true -> x = Tok s /\ b = true.
Proof. intros H. apply andb_true_iff in H as [H Hb]. apply is_tok_true in H. split; assumption. Qed.
Lemma is_tok_refl s : is_tok (Tok s) s = true.
Proof. exact (eqb_text_refl s). Qed.
Lemma is_tok_o_true p s : is_tok_o p s = true -> p = Some (Tok s).
Proof. destruct p as [y|]; cbn [is_tok_o]; [|discriminate]. intros H. apply is_tok_true in H. subst y. reflexivity. Qed.
Lemma is_grp_true x d : is_grp x d = true -> exists its, x = Grp d its.
Proof.
  destruct x as [t|d' its]; cbn [is_grp]; [discriminate|].
  destruct d', d; cbn [delim_eqb]; try discriminate; intros _; eexists; reflexivity.
Qed.
Lemma mem_text_In t l : mem_text t l = true <-> In t l.
Proof.
  induction l as [|x l IH]; cbn [mem_text In].
  - split; [discriminate|tauto].
  - rewrite orb_true_iff, eqb_text_spec, IH. split; intros [H|H]; auto.
Qed.
Lemma brace_ctx_of ctx : brace_ctx (sctx_of ctx) = is_brace ctx.
Proof. destruct ctx as [[| |]|]; reflexivity. Qed.
Lemma sctx_of_not_macro ctx : sctx_of ctx <> CMacro.
Proof. destruct ctx; discriminate. Qed.
Lemma eqb_texts_spec a b : eqb_texts a b = true <-> a = b.
Proof.
  revert b; induction a as [|x a IH]; intros [|y b]; cbn [eqb_texts]; try (split; [discriminate|discriminate]).
  - split; reflexivity.
  - rewrite andb_true_iff, eqb_text_spec, IH. split; [intros [-> ->]; reflexivity|intros H; inversion H; auto].
Qed.
Lemma rkind_eqb_true a b : rkind_eqb a b = true -> a = b.
Proof. destruct a, b; cbn [rkind_eqb]; intros H; try discriminate; reflexivity. Qed.
Lemma rkind_use_dec k : k = RUse \/ k <> RUse.
Proof. destruct k; [left; reflexivity|right; discriminate|right; discriminate]. Qed.

Lemma significant_app a b : significant (a ++ b) = significant a ++ significant b.
Proof. unfold significant. apply filter_app. Qed.
Lemma significant_trivia k t : is_trivia k = true -> significant [(k, t)] = [].
Proof. intros H. unfold significant. cbn [filter fst]. rewrite H. reflexivity. Qed.
Lemma norm_ws_comments_irrelevant_lemma o ts1 k t ts2 :
  is_trivia k = true -> norm o (ts1 ++ [(k, t)] ++ ts2) = norm o (ts1 ++ ts2).
Proof.
  intros H. unfold norm, norm_items.
  rewrite !significant_app, (significant_trivia k t H). reflexivity.
Qed.
Lemma norm_total_lemma o ts : exists! r, norm o ts = r.
Proof. exists (norm o ts). split; [reflexivity|intros r H; exact H]. Qed.

Fixpoint E_item (x : item) : list text :=
  match x with
  | Tok t => ess [t]
  | Grp _ its => flat_map E_item its
  end.
Definition E (seq : list item) : list text := flat_map E_item seq.

Section Atoms.
Variable p : text -> bool.
Definition atoms (l : list text) : list text := filter p (unglue l).
Lemma atoms_app a b : atoms (a ++ b) = atoms a ++ atoms b.
Proof. unfold atoms, unglue. rewrite flat_map_app, filter_app. reflexivity. Qed.
Lemma atoms_flat_map {A : Type} (f : A -> list text) g l :
  Forall (fun y => atoms (f y) = g y) l -> atoms (flat_map f l) = flat_map g l.
Proof.
  intros H. induction H as [|y l Hy _ IH]; [reflexivity|].
  cbn [flat_map]. rewrite atoms_app, Hy, IH. reflexivity.
Qed.
Variable g : item -> list text.
Hypothesis g_tok : forall t, g (Tok t) = atoms [t].
Hypothesis g_grp : forall d its, g (Grp d its) = flat_map g its.
Hypothesis no_open : forall d, atoms [open_text d] = [].
Hypothesis no_close : forall d, atoms [close_text d] = [].
Lemma atoms_flatten_item x : atoms (flatten_item x) = g x.
Proof.
  induction x as [s|d its IH] using item_ind'; [symmetry; apply g_tok|].
  cbn [flatten_item]. change (open_text d :: ?l) with ([open_text d] ++ l).
  rewrite !atoms_app, no_open, no_close, app_nil_r, g_grp. apply atoms_flat_map, IH.
Qed.
Lemma atoms_flatten seq : atoms (flatten seq) = flat_map g seq.
Proof. apply atoms_flat_map, Forall_forall. intros x _. apply atoms_flatten_item. Qed.
End Atoms.

Lemma ess_flatten seq : ess (flatten seq) = E seq.
Proof. apply (atoms_flatten essential E_item); try reflexivity; intros d; destruct d; reflexivity. Qed.

Lemma E_app a b : E (a ++ b) = E a ++ E b.
Proof. unfold E. apply flat_map_app. Qed.
Lemma E_cons x r : E (x :: r) = E_item x ++ E r.
Proof. reflexivity. Qed.
Lemma E_nil : E [] = [].
Proof. reflexivity. Qed.
Lemma E_grp d its : E_item (Grp d its) = E its.
Proof. reflexivity. Qed.
Lemma E_rev_cons x out : E (rev (x :: out)) = E (rev out) ++ E_item x.
Proof. apply flat_map_rev_cons. Qed.
Lemma E_tok_inessential s : essential s = false -> (forall a b, unglue1 s = [a; b] -> False) -> unglue1 s = [s] -> E_item (Tok s) = [].
Proof. intros H _ Hu. cbn [E_item]. unfold ess, unglue. cbn [flat_map]. rewrite Hu. cbn [app filter]. rewrite H. reflexivity. Qed.
Lemma Et_semi : E_item (Tok s_semi) = []. Proof. reflexivity. Qed.
Lemma Et_comma : E_item (Tok s_comma) = []. Proof. reflexivity. Qed.
Lemma Et_pipe : E_item (Tok s_pipe) = []. Proof. reflexivity. Qed.
Lemma Et_colon : E_item (Tok s_colon) = []. Proof. reflexivity. Qed.
Lemma Et_coloncolon : E_item (Tok s_coloncolon) = []. Proof. reflexivity. Qed.
Lemma Et_where : E_item (Tok s_where) = []. Proof. reflexivity. Qed.
Lemma Et_for : E_item (Tok s_for) = []. Proof. reflexivity. Qed.
Lemma Et_in : E_item (Tok s_in) = []. Proof. reflexivity. Qed.
Lemma Et_abiC : E_item (Tok s_abiC) = []. Proof. reflexivity. Qed.
Lemma Et_lt : E_item (Tok s_lt) = []. Proof. reflexivity. Qed.
Lemma Et_gt : E_item (Tok s_gt) = []. Proof. reflexivity. Qed.

Lemma glue_pair_ess a b : glue_pair a b = true -> E_item (Tok (a ++ b)) = E_item (Tok a) ++ E_item (Tok b).
Proof.
  unfold glue_pair. intros H. apply mem_text_In in H.
  destruct H as [H|[H|[H|[]]]]; symmetry in H; apply app_eq_two in H;
    destruct H as [[-> ->]|[[-> ->]|[-> ->]]]; reflexivity.
Qed.

Lemma last_is_inv items s : last_is items s = true -> exists its, items = its ++ [Tok s].
Proof.
  unfold last_is. destruct (rev items) as [|y r] eqn:Hr; [discriminate|].
  intros H. apply is_tok_true in H as ->. exists (rev r). exact (rev_eq_app items [Tok s] r Hr).
Qed.
Lemma drops_tail_semi_last items : drops_tail_semi items = true -> last_is items s_semi = true.
Proof.
  unfold drops_tail_semi, last_is. destruct (rev items); [discriminate|].
  intros H. apply andb_true_iff in H. apply H.
Qed.
Lemma lasto_inv P : match lasto P with Some z => exists P0, P = P0 ++ [z] | None => P = [] end.
Proof.
  unfold lasto. destruct (rev P) as [|z r] eqn:Hr; cbn [hd_error]; [|exists (rev r); exact (rev_eq_app P [z] r Hr)].
  exact (rev_eq_app P [] [] Hr).
Qed.
Lemma lasto_rev out : lasto (rev out) = hd_error out.
Proof. unfold lasto. rewrite rev_involutive. reflexivity. Qed.
Lemma lasto_snoc P x : lasto (P ++ [x]) = Some x.
Proof. unfold lasto. rewrite rev_app_distr. reflexivity. Qed.
Lemma lasto_nil : lasto [] = None.
Proof. reflexivity. Qed.
Lemma macro_def_pos_rev out : macro_def_pos (rev out) = macro_rules_head out.
Proof. unfold macro_def_pos. rewrite rev_involutive. reflexivity. Qed.
Lemma macro_call_pos_rev out :
  macro_call_pos (rev out) = is_tok_o (hd_error out) s_bang && match out with _ :: y :: _ => is_ident y | _ => false end.
Proof.
  unfold macro_call_pos. rewrite rev_involutive.
  destruct out as [|b [|y out]]; cbn [hd_error is_tok_o]; try reflexivity.
  rewrite andb_false_r. reflexivity.
Qed.

Lemma glue_eq a b rest : glue (Tok a :: Tok b :: rest) =
  if glue_pair a b then Tok (a ++ b) :: glue rest else Tok a :: glue (Tok b :: rest).
Proof. reflexivity. Qed.
Lemma unwrap_eq x : unwrap x =
  if single_expr_block x then
    match x with
    | Grp _ its => match its with [y] => unwrap y | _ => its end
    | Tok _ => [x]
    end
  else [x].
Proof. destruct x; reflexivity. Qed.
Lemma arms_eq brace x nxt rest2 : arms brace (x :: nxt :: rest2) =
  if is_tok x s_fatarrow && brace && is_grp nxt DBrace then
    let rest3 := match rest2 with
                 | a :: r3 => if is_tok a s_comma then r3 else rest2
                 | [] => rest2
                 end in
    x :: unwrap nxt ++ (match rest3 with [] => [] | _ :: _ => [Tok s_comma] end) ++ arms brace rest3
  else x :: arms brace (nxt :: rest2).
Proof. reflexivity. Qed.
Lemma glue2_eq a na b nb rest : glue2 ((Tok a, na) :: (Tok b, nb) :: rest) =
  if glue_pair a b then (Tok (a ++ b), []) :: glue2 rest else (Tok a, na) :: glue2 ((Tok b, nb) :: rest).
Proof. reflexivity. Qed.

Lemma Eq_step_then c a b e : Step c a b -> Equiv c b e -> Equiv c a e.
Proof. intros H1 H2. eapply Eq_trans; [apply Eq_step; exact H1|exact H2]. Qed.
Lemma Eq_pets_then c a b e : Step c b a -> Equiv c b e -> Equiv c a e.
Proof. intros H1 H2. eapply Eq_trans; [apply Eq_sym, Eq_step; exact H1|exact H2]. Qed.

(* Equiv is not a congruence for prefixes, since the side conditions of many steps read what comes before; the passes
   that look only ahead satisfy this stronger relation, and it composes.  A pass that reads the prefix P is stated as
   Equiv (P ++ seq) (P ++ f (rev P) seq),  a loop with an accumulator as  Equiv (rev out ++ seq) (loop out seq) *)
Definition PEq (c : sctx) (a b : list item) : Prop := forall P, Equiv c (P ++ a) (P ++ b).
Lemma PEq_refl c a : PEq c a a.
Proof. intros P. apply Eq_refl. Qed.
Lemma PEq_sym c a b : PEq c a b -> PEq c b a.
Proof. intros H P. apply Eq_sym, H. Qed.
Lemma PEq_trans c a b e : PEq c a b -> PEq c b e -> PEq c a e.
Proof. intros H1 H2 P. eapply Eq_trans; [apply H1|apply H2]. Qed.
Lemma PEq_app c l a b : PEq c a b -> PEq c (l ++ a) (l ++ b).
Proof. intros H P. rewrite !app_assoc. apply H. Qed.
Lemma PEq_cons c x a b : PEq c a b -> PEq c (x :: a) (x :: b).
Proof. exact (PEq_app c [x] a b). Qed.
Lemma Equiv_snoc c P x a b : Equiv c ((P ++ [x]) ++ a) ((P ++ [x]) ++ b) -> Equiv c (P ++ x :: a) (P ++ x :: b).
Proof. rewrite !app_cons_assoc. exact (fun H => H). Qed.

Lemma glue_equiv c seq : PEq c seq (glue seq).
Proof.
  induction seq as [|x|x y l IH1 IH2] using list_ind2; [apply PEq_refl|destruct x; apply PEq_refl|].
  destruct x as [a|d its]; [|exact (PEq_cons _ _ _ _ IH2)].
  destruct y as [b|d its]; [|exact (PEq_cons _ _ _ _ IH2)].
  rewrite glue_eq. destruct (glue_pair a b) eqn:Hg; [|exact (PEq_cons _ _ _ _ IH2)].
  intros P. eapply Eq_step_then; [apply S_glue; exact Hg|]. apply PEq_cons, IH1.
Qed.

Lemma rewrite_loop_equiv ctx seq : forall out,
  Equiv (sctx_of ctx) (rev out ++ seq) (rewrite_loop ctx out seq).
Proof.
  induction seq as [|x rest IH] using tails_ind; intros out.
  { cbn [rewrite_loop]. rewrite app_nil_r. apply Eq_refl. }
  cbn [rewrite_loop]. cbv zeta.
  destruct (is_tok x s_semi && _) eqn:H1.
  { apply is_tok_andb in H1 as [-> H1b].
    eapply Eq_step_then; [apply S_redundant_semi|apply (IH 0%nat)].
    rewrite lasto_rev, brace_ctx_of, match_rev. destruct out; exact H1b. }
  destruct (is_tok x s_where && _) eqn:H2.
  { apply is_tok_andb in H2 as [-> H2b].
    eapply Eq_step_then; [apply S_empty_where|apply (IH 0%nat)].
    destruct rest as [|y rest']; [reflexivity|]. unfold ends_where. rewrite orb_comm, orb_assoc. exact H2b. }
  destruct (is_tok x s_colon && _ && _ && _) eqn:H3.
  { apply andb_true_iff in H3 as [H3 H3d]. apply andb_true_iff in H3 as [H3 H3c].
    apply is_tok_andb in H3 as [-> H3b].
    eapply Eq_step_then; [apply S_empty_bounds|apply (IH 0%nat)].
    - rewrite lasto_rev. exact H3b.
    - destruct rest; exact H3c.
    - rewrite brace_ctx_of. apply negb_true_iff, H3d. }
  destruct (is_tok x s_extern && _ && _) eqn:H4.
  { apply andb_true_iff in H4 as [H4 H4c]. apply is_tok_andb in H4 as [-> H4b].
    eapply Eq_step_then.
    { apply S_extern_abi. destruct rest as [|y rest']; [reflexivity|].
      cbn [hd_error is_tok_o] in *. rewrite H4b. destruct y; exact H4c. }
    rewrite <- !rev_cons_app. apply (IH 0%nat). }
  assert (Hdef : Equiv (sctx_of ctx) (rev out ++ x :: rest) (rewrite_loop ctx (x :: out) rest)).
  { rewrite <- rev_cons_app. apply (IH 0%nat). }
  (* the match on rest: a `(` group of two items, or of three and more, comes next; every other shape is Hdef *)
  destruct rest as [|[t|d its] rest']; try exact Hdef.
  destruct d; try exact Hdef.
  destruct its as [|a [|b [|c0 more]]]; try exact Hdef.
  - destruct (is_tok x s_pub && is_tok a s_in && vis_kw b) eqn:H5; [|exact Hdef].
    apply andb_true_iff in H5 as [H5 H5c]. apply is_tok_andb in H5 as [-> H5b]. apply is_tok_true in H5b as ->.
    eapply Eq_step_then; [apply S_vis_in; exact H5c|].
    rewrite <- !rev_cons_app. apply (IH 1%nat).
  - destruct (is_tok x s_pub && is_tok a s_in && is_tok b s_coloncolon) eqn:H5; [|exact Hdef].
    apply andb_true_iff in H5 as [H5 H5c]. apply is_tok_andb in H5 as [-> H5b].
    apply is_tok_true in H5b as ->. apply is_tok_true in H5c as ->.
    eapply Eq_step_then; [apply S_vis_root|].
    rewrite <- !rev_cons_app. apply (IH 1%nat).
Qed.

Lemma tail_semi_equiv c items Q : c <> CMacro -> drops_tail_semi items = true ->
  PEq c (Grp DBrace items :: Q) (Grp DBrace (removelast items) :: Q).
Proof.
  intros Hc Hd P. destruct (last_is_inv _ _ (drops_tail_semi_last _ Hd)) as [its ->]. rewrite removelast_last.
  (* a macro body is read in CMacro, where S_diverging_semi does not hold: there the `;` goes as a final separator *)
  destruct (macro_def_pos P) eqn:Hm.
  - apply Eq_macro_body; [exact Hc|exact Hm|].
    pose proof (S_macro_sep CMacro its [] eq_refl eq_refl) as HS.
    rewrite app_nil_r in HS. apply Eq_step, HS.
  - apply Eq_nest; [exact Hc|exact Hm|]. apply Eq_step, S_diverging_semi; [reflexivity|exact Hd].
Qed.
Lemma block_tail_equiv c x Q : c <> CMacro -> PEq c (x :: Q) (block_tail x :: Q).
Proof.
  intros Hc. destruct x as [t|d items]; [apply PEq_refl|]. destruct d; try apply PEq_refl.
  cbn [block_tail]. destruct (drops_tail_semi items) eqn:Hd; [apply tail_semi_equiv; assumption|apply PEq_refl].
Qed.
Lemma block_tails_equiv c seq : c <> CMacro -> PEq c seq (block_tails seq).
Proof.
  intros Hc. induction seq as [|x r IH]; [apply PEq_refl|].
  eapply PEq_trans; [apply block_tail_equiv, Hc|exact (PEq_cons _ _ _ _ IH)].
Qed.

Lemma seb_brace x : single_expr_block x = true -> exists body, x = Grp DBrace body.
Proof.
  destruct x as [t|d its]; [discriminate|]. destruct d; try discriminate. intros _. eexists. reflexivity.
Qed.
Lemma unwrap_equiv c (K : list item -> list item) Q :
  (forall body, single_expr_block (Grp DBrace body) = true -> Equiv c (K (Grp DBrace body :: Q)) (K (body ++ Q))) ->
  forall x, Equiv c (K (x :: Q)) (K (unwrap x ++ Q)).
Proof.
  intros Hstep x. induction x as [s|d its IH] using item_ind'.
  - rewrite unwrap_eq. destruct (single_expr_block (Tok s)); apply Eq_refl.
  - rewrite unwrap_eq. destruct (single_expr_block (Grp d its)) eqn:Hs; [|apply Eq_refl].
    destruct (seb_brace _ Hs) as [body Hb]. inversion Hb; subst d body.
    eapply Eq_trans; [apply Hstep; exact Hs|].
    destruct its as [|y [|z its]]; try apply Eq_refl.
    inversion IH as [|? ? Hy _]; subst. exact Hy.
Qed.

Lemma arms_equiv c seq : PEq c seq (arms (brace_ctx c) seq).
Proof.
  induction seq as [|x [|nxt rest2] IH] using tails_ind; [apply PEq_refl|apply PEq_refl|].
  rewrite arms_eq.
  destruct (is_tok x s_fatarrow && brace_ctx c && is_grp nxt DBrace) eqn:Hc; cbv zeta.
  2:{ apply PEq_cons, (IH 0%nat). }
  apply andb_true_iff in Hc as [Hc Hg]. apply is_tok_andb in Hc as [-> Hb].
  destruct (is_grp_true _ _ Hg) as [b ->].
  assert (Hun : forall Q, PEq c (Tok s_fatarrow :: Grp DBrace b :: Q) (Tok s_fatarrow :: unwrap (Grp DBrace b) ++ Q)).
  { intros Q P. apply (unwrap_equiv c (fun l => P ++ Tok s_fatarrow :: l)).
    intros body Hs. apply Eq_step, S_arm_block; assumption. }
  assert (Hcomma : forall Q, PEq c (Tok s_fatarrow :: Grp DBrace b :: Tok s_comma :: Q) (Tok s_fatarrow :: Grp DBrace b :: Q)).
  { intros Q P. apply Equiv_snoc, Eq_step, S_arm_comma; [exact Hb|].
    rewrite !existsb_app. cbn [existsb]. unfold is_fatarrow at 2. rewrite is_tok_refl, orb_true_r. reflexivity. }
  assert (Hgo : forall k, PEq c (Tok s_fatarrow :: Grp DBrace b :: Tok s_comma :: skipn k rest2)
           (Tok s_fatarrow :: unwrap (Grp DBrace b) ++ [Tok s_comma] ++ arms (brace_ctx c) (skipn k rest2))).
  { intros k. eapply PEq_trans; [apply Hun|]. apply PEq_cons, PEq_app, PEq_cons, (IH (S k)). }
  destruct rest2 as [|a r3]; [exact (Hun [])|].
  destruct (is_tok a s_comma) eqn:Ha.
  - apply is_tok_true in Ha as ->. destruct r3 as [|z r3].
    + eapply PEq_trans; [apply Hcomma|exact (Hun [])].
    + exact (Hgo 1%nat).
  - eapply PEq_trans; [apply PEq_sym, Hcomma|]. exact (Hgo 0%nat).
Qed.

Definition strip_comma (p : list item) : list item :=
  match p with y :: p' => if is_tok y s_comma then p' else p | [] => [] end.
Definition closure_step (res : list item) (x : item) (rest : list item) : list item * list item :=
  if is_tok x s_pipe && starts_expr (hd_error res) then
    match find_close rest [] with
    | None => (x :: res, rest)
    | Some (params_rev, after) =>
        match after with
        | b :: after' =>
            if single_expr_block b && negb (existsb (fun t => is_tok t s_fatarrow) (x :: rev (strip_comma params_rev)))
            then (rev (unwrap b) ++ Tok s_pipe :: strip_comma params_rev ++ x :: res, after')
            else (x :: res, rev (strip_comma params_rev) ++ Tok s_pipe :: after)
        | [] => (x :: res, rev (strip_comma params_rev) ++ [Tok s_pipe])
        end
    end
  else (x :: res, rest).
Lemma closures_eq f res x rest :
  closures (S f) res (x :: rest) = closures f (fst (closure_step res x rest)) (snd (closure_step res x rest)).
Proof.
  cbn [closures]. unfold closure_step.
  destruct (is_tok x s_pipe && starts_expr (hd_error res)); [|reflexivity].
  destruct (find_close rest []) as [[params_rev after]|]; [|reflexivity].
  destruct after as [|b after']; [reflexivity|]. cbv zeta.
  destruct (single_expr_block b && _); reflexivity.
Qed.

Lemma find_close_spec l : forall acc p after, find_close l acc = Some (p, after) ->
  exists params, rev p = rev acc ++ params /\ l = params ++ Tok s_pipe :: after /\ closure_params params = true.
Proof.
  induction l as [|y l IH]; intros acc p after; cbn [find_close]; [discriminate|].
  destruct (is_tok y s_pipe) eqn:Hy.
  - intros H. inversion H; subst. apply is_tok_true in Hy as ->. exists []. rewrite app_nil_r. repeat split.
  - destruct (is_tok y s_semi || is_tok y s_fatarrow) eqn:Hs; [discriminate|].
    intros H. destruct (IH _ _ _ H) as (params & Hp & -> & Hcp). exists (y :: params).
    cbn [rev] in Hp. rewrite app_cons_assoc in Hp. split; [exact Hp|]. split; [reflexivity|].
    unfold closure_params in *. cbn [existsb]. rewrite Hy. cbn [orb]. rewrite Hs. exact Hcp.
Qed.
Lemma strip_comma_equiv c P p Q : starts_expr (lasto P) = true -> closure_params (rev p) = true ->
  Equiv c (P ++ Tok s_pipe :: rev p ++ Tok s_pipe :: Q) (P ++ Tok s_pipe :: rev (strip_comma p) ++ Tok s_pipe :: Q)
  /\ closure_params (rev (strip_comma p)) = true.
Proof.
  intros Hse Hcp. destruct p as [|y q]; [split; [apply Eq_refl|reflexivity]|]. cbn [strip_comma].
  destruct (is_tok y s_comma) eqn:Hy; [|split; [apply Eq_refl|exact Hcp]].
  apply is_tok_true in Hy as ->.
  assert (Hq : closure_params (rev q) = true).
  { unfold closure_params in *. cbn [rev] in Hcp. rewrite existsb_app in Hcp. apply negb_true_iff in Hcp.
    apply orb_false_iff in Hcp as [Hcp _]. rewrite Hcp. reflexivity. }
  split; [|exact Hq]. cbn [rev]. rewrite <- app_assoc. apply Eq_step, S_closure_comma; assumption.
Qed.
Lemma closure_step_equiv c res x rest :
  Equiv c (rev res ++ x :: rest) (rev (fst (closure_step res x rest)) ++ snd (closure_step res x rest)).
Proof.
  unfold closure_step.
  assert (Hdef : forall l, Equiv c (rev res ++ x :: l) (rev (x :: res) ++ l)) by (intros l; rewrite rev_cons_app; apply Eq_refl).
  destruct (is_tok x s_pipe && starts_expr (hd_error res)) eqn:Hc; [|apply Hdef].
  apply is_tok_andb in Hc as [-> Hse]. rewrite <- lasto_rev in Hse.
  destruct (find_close rest []) as [[params_rev after]|] eqn:Hf; [|apply Hdef].
  destruct (find_close_spec _ _ _ _ Hf) as (params & Hp & -> & Hcp). cbn [rev app] in Hp. subst params.
  destruct (strip_comma_equiv c (rev res) params_rev after Hse Hcp) as [Hp Hcp'].
  eapply Eq_trans; [exact Hp|].
  destruct after as [|b after']; [apply Hdef|].
  destruct (single_expr_block b && _) eqn:Hb; [|apply Hdef].
  apply andb_true_iff in Hb as [Hb _]. cbn [fst snd].
  rewrite !rev_app_distr, rev_involutive. cbn [rev]. rewrite !rev_app_distr. cbn [rev app].
  rewrite <- !app_assoc. cbn [app].
  apply (unwrap_equiv c (fun l => rev res ++ Tok s_pipe :: rev (strip_comma params_rev) ++ Tok s_pipe :: l)).
  intros body Hs. apply Eq_step, S_closure_block; assumption.
Qed.
Lemma closures_equiv c fuel : forall res l, Equiv c (rev res ++ l) (closures fuel res l).
Proof.
  induction fuel as [|f IH]; intros res l; [apply Eq_refl|].
  destruct l as [|x rest]; [cbn [closures]; rewrite app_nil_r; apply Eq_refl|].
  rewrite closures_eq. eapply Eq_trans; [apply closure_step_equiv|apply IH].
Qed.
Lemma closure_step_length res x rest : (length (snd (closure_step res x rest)) <= length rest)%nat.
Proof.
  unfold closure_step. destruct (is_tok x s_pipe && starts_expr (hd_error res)); [|apply le_n].
  destruct (find_close rest []) as [[params_rev after]|] eqn:Hf; [|apply le_n].
  destruct (find_close_spec _ _ _ _ Hf) as (params & Hp & -> & _). cbn [rev app] in Hp. subst params.
  assert (Hp : (length (strip_comma params_rev) <= length params_rev)%nat).
  { destruct params_rev as [|y q]; [apply le_n|]. cbn [strip_comma]. destruct (is_tok y s_comma); cbn [length]; lia. }
  (* of  rev params_rev ++ | :: after  there is left after', or the stripped parameters, the pipe and after *)
  destruct after as [|b after']; [|destruct (single_expr_block b && _)]; cbn [snd];
    rewrite ?app_length, ?rev_length; cbn [length] in *; lia.
Qed.
Lemma closures_fuel_irrelevant_lemma f1 : forall f2 res l,
  (length l < f1)%nat -> (length l < f2)%nat -> closures f1 res l = closures f2 res l.
Proof.
  induction f1 as [|f1 IH]; intros f2 res l H1 H2; [lia|].
  destruct f2 as [|f2]; [lia|]. destruct l as [|x rest]; [reflexivity|].
  rewrite !closures_eq. pose proof (closure_step_length res x rest). cbn [length] in *. apply IH; lia.
Qed.
(* so closures_run never reaches the out-of-fuel branch *)
Lemma closures_run_fuel_lemma l k : closures_run l = closures (S (length l) + k) [] l.
Proof. unfold closures_run. apply closures_fuel_irrelevant_lemma; lia. Qed.

Lemma lead_pipes_equiv c l : forall final, Equiv c (rev final ++ l) (lead_pipes (brace_ctx c) final l).
Proof.
  induction l as [|x rest IH]; intros final; cbn [lead_pipes]; [rewrite app_nil_r; apply Eq_refl|].
  destruct (is_tok x s_pipe && brace_ctx c && arm_start final && arrow_before_comma rest) eqn:Hc.
  - apply andb_true_iff in Hc as [Hc H4]. apply andb_true_iff in Hc as [Hc H3].
    apply is_tok_andb in Hc as [-> H2].
    eapply Eq_step_then; [|apply IH]. apply S_leading_pipe; [exact H2|rewrite rev_involutive; exact H3|exact H4].
  - rewrite <- rev_cons_app. apply IH.
Qed.

Lemma drop_arm_commas_equiv c l : brace_ctx c = true -> forall P prev,
  (is_grp_o prev DBrace = true -> lasto P = prev) ->
  existsb is_fatarrow (P ++ l) = true ->
  Equiv c (P ++ l) (P ++ drop_arm_commas prev l).
Proof.
  intros Hb. induction l as [|x r IH]; intros P prev Hprev Hex; cbn [drop_arm_commas]; [apply Eq_refl|].
  destruct (is_tok x s_comma && is_grp_o prev DBrace) eqn:Hc.
  - apply is_tok_andb in Hc as [-> Hg].
    specialize (Hprev Hg). destruct prev as [p|]; [|discriminate]. cbn [is_grp_o] in Hg.
    destruct (is_grp_true _ _ Hg) as [b ->].
    pose proof (lasto_inv P) as HP. rewrite Hprev in HP. destruct HP as [P0 ->].
    rewrite (app_cons_assoc P0 (Grp DBrace b) (Tok s_comma :: r)) in *.
    assert (Hex' : existsb is_fatarrow (P0 ++ r) = true).
    { rewrite existsb_app in *. exact Hex. }
    eapply Eq_step_then; [apply S_arm_comma; assumption|].
    rewrite <- (app_cons_assoc P0 (Grp DBrace b) r). apply IH.
    + intros H. discriminate.
    + rewrite app_cons_assoc, existsb_app in *. exact Hex'.
  - apply Equiv_snoc, IH.
    + intros _. apply lasto_snoc.
    + rewrite app_cons_assoc. exact Hex.
Qed.

Lemma arms_and_closures_equiv ctx seq :
  Equiv (sctx_of ctx) seq (arms_and_closures ctx seq).
Proof.
  unfold arms_and_closures. rewrite <- brace_ctx_of.
  set (c := sctx_of ctx).
  assert (H : Equiv c seq (lead_pipes (brace_ctx c) [] (closures_run (arms (brace_ctx c) seq)))).
  { eapply Eq_trans; [apply (arms_equiv c seq [])|].
    eapply Eq_trans; [apply (closures_equiv c (S (length (arms (brace_ctx c) seq))) [])|apply (lead_pipes_equiv c _ [])]. }
  destruct (brace_ctx c) eqn:Hb; [|exact H]. cbn [andb].
  destruct (existsb _ (lead_pipes _ _ _)) eqn:He; [|exact H].
  eapply Eq_trans; [exact H|].
  apply (drop_arm_commas_equiv c _ Hb [] None); [discriminate|exact He].
Qed.

Definition trim_comma (out : list item) (x : item) : item :=
  match x with
  | Grp d items =>
      Grp d (if last_is items s_comma
             then if negb (delim_eqb d DParen) || Nat.leb 2 (tuple_commas items) || arg_pos out
                  then removelast items else items
             else items)
  | Tok _ => x
  end.
Lemma trim_group_eq out x : trim_group out x = block_tail (trim_comma out x).
Proof.
  destruct x as [t|d items]; [reflexivity|]. destruct d; try reflexivity.
  cbn [trim_group trim_comma block_tail]. destruct (drops_tail_semi _); reflexivity.
Qed.
Lemma trim_comma_equiv c P x Q : Equiv c (P ++ x :: Q) (P ++ trim_comma (rev P) x :: Q).
Proof.
  destruct x as [t|d items]; [apply Eq_refl|]. cbn [trim_comma].
  destruct (last_is items s_comma) eqn:Hl; [|apply Eq_refl].
  destruct (last_is_inv _ _ Hl) as [its ->].
  destruct (negb _ || _ || _) eqn:He; [|apply Eq_refl].
  rewrite removelast_last. apply Eq_step, S_trailing_sep, He.
Qed.
Lemma trim_group_equiv c P x Q : c <> CMacro ->
  Equiv c (P ++ x :: Q) (P ++ trim_group (rev P) x :: Q).
Proof.
  intros Hc. rewrite trim_group_eq.
  eapply Eq_trans; [apply trim_comma_equiv|apply block_tail_equiv, Hc].
Qed.
Lemma trim_groups_equiv c seq : c <> CMacro -> forall P, Equiv c (P ++ seq) (P ++ trim_groups (rev P) seq).
Proof.
  intros Hc. induction seq as [|x r IH]; intros P; [apply Eq_refl|].
  cbn [trim_groups]. cbv zeta.
  eapply Eq_trans; [apply trim_group_equiv; exact Hc|].
  apply Equiv_snoc. rewrite <- rev_unit. apply IH.
Qed.

Lemma wstate_snoc P x : wstate (P ++ [x]) = wstep (wstate P) x.
Proof. unfold wstate. rewrite fold_left_app. reflexivity. Qed.
Lemma wstep_comma w a : wstep (w, a) (Tok s_comma) = (w, a).
Proof. destruct w, a; reflexivity. Qed.
Lemma where_commas_comma w a r : where_commas w a (Tok s_comma :: r) =
  if is_tok_o (hd_error r) s_gt then where_commas w a r
  else if w && Nat.eqb a 0 && match hd_error r with None => true | Some y => ends_where y end then where_commas w a r
  else Tok s_comma :: where_commas w a r.
Proof. destruct w, a; reflexivity. Qed.
Lemma where_commas_other w a x r : is_tok x s_comma = false ->
  where_commas w a (x :: r) = let (w', a') := wstep (w, a) x in x :: where_commas w' a' r.
Proof. intros Hx. cbn [where_commas wstep]. cbv zeta. rewrite Hx. reflexivity. Qed.
Lemma where_commas_equiv c seq : forall P w a, wstate P = (w, a) ->
  Equiv c (P ++ seq) (P ++ where_commas w a seq).
Proof.
  induction seq as [|x r IH]; intros P w a Hst; [apply Eq_refl|].
  destruct (is_tok x s_comma) eqn:Hx.
  - apply is_tok_true in Hx as ->. rewrite where_commas_comma.
    destruct (is_tok_o (hd_error r) s_gt) eqn:Hn.
    + apply is_tok_o_true in Hn. destruct r as [|y r']; [discriminate|]. cbn [hd_error] in Hn. inversion Hn; subst y.
      eapply Eq_step_then; [apply S_generic_comma|]. apply IH. exact Hst.
    + destruct (w && Nat.eqb a 0 && match hd_error r with None => true | Some y => ends_where y end) eqn:Hw.
      * apply andb_true_iff in Hw as [Hw Hn2].
        eapply Eq_step_then; [|apply IH; exact Hst].
        apply S_where_comma; [rewrite Hst; exact Hw|destruct r; exact Hn2].
      * apply Equiv_snoc, IH. rewrite wstate_snoc, Hst. apply wstep_comma.
  - rewrite (where_commas_other w a x r Hx). destruct (wstep (w, a) x) as [w' a'] eqn:Hw.
    apply Equiv_snoc, IH. rewrite wstate_snoc, Hst. exact Hw.
Qed.
Lemma trailing_seps_equiv c seq : c <> CMacro -> Equiv c seq (trailing_seps seq).
Proof.
  intros Hc. unfold trailing_seps.
  eapply Eq_trans; [apply (trim_groups_equiv c seq Hc [])|].
  apply (where_commas_equiv c _ [] false O). reflexivity.
Qed.
Lemma rewrite_equiv o ctx seq : Equiv (sctx_of ctx) seq (rewrite o ctx seq).
Proof.
  unfold rewrite.
  assert (H : Equiv (sctx_of ctx) seq (block_tails (rewrite_loop ctx [] seq))).
  { eapply Eq_trans; [apply (rewrite_loop_equiv ctx seq [])|].
    apply (block_tails_equiv _ _ (sctx_of_not_macro ctx) []). }
  eapply Eq_trans; [|apply trailing_seps_equiv; apply sctx_of_not_macro].
  destruct (o_macro_def o); [exact H|].
  eapply Eq_trans; [exact H|apply arms_and_closures_equiv].
Qed.

Lemma map_fst_glue2 l : map fst (glue2 l) = glue (map fst l).
Proof.
  induction l as [|x|x y l IH1 IH2] using list_ind2; [reflexivity|destruct x as [[a|d its] n]; reflexivity|].
  destruct x as [[a|d its] na]; [|exact (f_equal (cons _) IH2)].
  destruct y as [[b|d its] nb]; [|exact (f_equal (cons _) IH2)].
  cbn [map fst]. rewrite glue2_eq, glue_eq. destruct (glue_pair a b); cbn [map fst]; f_equal; assumption.
Qed.
Lemma glue2_Forall (Q : mitem -> Prop) l : (forall t, Q (Tok t, [])) -> Forall Q l -> Forall Q (glue2 l).
Proof.
  intros Ht. induction l as [|x|x y l IH1 IH2] using list_ind2; intros HF;
    [exact HF|destruct x as [[a|d its] n]; exact HF|].
  inversion HF as [|? ? Hx HF1]; subst. inversion HF1 as [|? ? Hy HF2]; subst.
  assert (Hdef : Forall Q (x :: glue2 (y :: l))) by (constructor; auto).
  destruct x as [[a|d its] na]; [|exact Hdef]. destruct y as [[b|d its] nb]; [|exact Hdef].
  rewrite glue2_eq. destruct (glue_pair a b); [constructor; auto|exact Hdef].
Qed.

(* mokE: what macro_def_is_steps assumes of each item.  sep_inv P: an arm may start after P, the side condition on pre
   of S_macro_arm_delims and Eq_macro_arm *)
Definition mokE (p : mitem) : Prop := forall d s, fst p = Grp d s -> Equiv (CIn DBrace) s (snd p).
Definition sep_inv (P : list item) : Prop :=
  match lasto P with None => true | Some p => is_tok p s_semi end = true.
Lemma sep_inv_snoc_semi P : sep_inv (P ++ [Tok s_semi]).
Proof. unfold sep_inv. rewrite lasto_snoc. reflexivity. Qed.
Lemma sep_inv_cases P : sep_inv P -> P = [] \/ exists P0, P = P0 ++ [Tok s_semi].
Proof.
  unfold sep_inv. pose proof (lasto_inv P) as HP. destruct (lasto P) as [z|]; intros H; [right|left; exact HP].
  apply is_tok_true in H as ->. exact HP.
Qed.
Lemma macro_arm_cases arm :
  arm = [] \/ macro_arm arm = map fst arm ++ [Tok s_semi] \/
  exists d1 m n1 n2 d2 body nb, arm = [(Grp d1 m, n1); (Tok s_fatarrow, n2); (Grp d2 body, nb)] /\
    macro_arm arm = [Grp DParen m; Tok s_fatarrow; Grp DBrace nb; Tok s_semi].
Proof.
  destruct arm as [|[[t|d1 m] n1] [|[a n2] [|[[t2|d2 body] nb] [|z arm]]]]; auto.
  unfold macro_arm. destruct (is_tok a s_fatarrow) eqn:Ha; [|auto].
  apply is_tok_true in Ha as ->. right. right. repeat eexists.
Qed.
Lemma macro_arm_sep arm P L : sep_inv P -> Forall mokE arm ->
  Equiv CMacro (P ++ map fst arm ++ Tok s_semi :: L) (P ++ macro_arm arm ++ L) /\ sep_inv (P ++ macro_arm arm).
Proof.
  intros HP HF.
  destruct (macro_arm_cases arm) as [->|[->|(d1 & m & n1 & n2 & d2 & body & nb & -> & ->)]].
  - cbn [map macro_arm app]. rewrite app_nil_r. split; [|exact HP].
    destruct (sep_inv_cases P HP) as [->|[P0 ->]].
    + apply Eq_step, S_macro_lead_sep. reflexivity.
    + rewrite (app_cons_assoc P0 (Tok s_semi) (Tok s_semi :: L)), (app_cons_assoc P0 (Tok s_semi) L).
      apply Eq_step, S_macro_sep; reflexivity.
  - split; [rewrite <- app_assoc; apply Eq_refl|rewrite app_assoc; apply sep_inv_snoc_semi].
  - pose proof (Forall_inv (Forall_inv_tail (Forall_inv_tail HF)) d2 body eq_refl) as Hb. cbn [snd] in Hb.
    cbn [map fst app]. split.
    + eapply Eq_trans.
      * apply (Eq_macro_arm CMacro P d1 m d2 body nb (Tok s_semi :: L) eq_refl HP eq_refl Hb).
      * apply Eq_step, S_macro_arm_delims; [reflexivity|exact HP|reflexivity].
    + change (sep_inv (P ++ [Grp DParen m; Tok s_fatarrow; Grp DBrace nb] ++ [Tok s_semi])).
      rewrite app_assoc. apply sep_inv_snoc_semi.
Qed.
Lemma macro_arm_end arm P : sep_inv P -> Forall mokE arm ->
  Equiv CMacro (P ++ map fst arm) (P ++ macro_arm arm).
Proof.
  intros HP HF.
  eapply Eq_trans with (P ++ map fst arm ++ [Tok s_semi]).
  - apply Eq_sym. rewrite app_assoc. rewrite <- (app_nil_r (P ++ map fst arm)) at 2.
    apply Eq_step. apply S_macro_sep; reflexivity.
  - rewrite <- (app_nil_r (macro_arm arm)). apply (macro_arm_sep arm P [] HP HF).
Qed.
Lemma macro_arms_equiv l : forall cur P, sep_inv P -> Forall mokE cur -> Forall mokE l ->
  Equiv CMacro (P ++ map fst (rev cur) ++ map fst l)
               (P ++ concat (map macro_arm (split_on (fun x : mitem => is_tok (fst x) s_semi) cur l))).
Proof.
  induction l as [|x l IH]; intros cur P HP Hc Hl; cbn [split_on].
  - cbn [map concat]. rewrite !app_nil_r. apply macro_arm_end; [exact HP|apply Forall_rev; exact Hc].
  - inversion Hl as [|? ? Hx Hl']; subst.
    destruct (is_tok (fst x) s_semi) eqn:Hs.
    + apply is_tok_true in Hs. cbn [map concat]. rewrite Hs.
      destruct (macro_arm_sep (rev cur) P (map fst l) HP (Forall_rev Hc)) as [H1 H2].
      eapply Eq_trans; [exact H1|].
      rewrite !app_assoc. specialize (IH [] (P ++ macro_arm (rev cur)) H2 (Forall_nil _) Hl').
      cbn [rev map app] in IH. exact IH.
    + specialize (IH (x :: cur) P HP (Forall_cons _ Hx Hc) Hl').
      cbn [rev] in IH. rewrite map_app in IH. cbn [map] in IH. rewrite <- app_assoc in IH. exact IH.
Qed.
Lemma macro_def_equiv items : Forall mokE items -> Equiv CMacro (map fst items) (macro_def items).
Proof.
  intros HF. unfold macro_def.
  eapply Eq_trans; [apply (glue_equiv CMacro (map fst items) [])|]. rewrite <- map_fst_glue2.
  apply (macro_arms_equiv (glue2 items) [] [] eq_refl (Forall_nil _)).
  apply glue2_Forall; [intros t d s Hd; discriminate|exact HF].
Qed.

Lemma collapse_equiv c P Q : arg_pos (rev P) = false ->
  forall g, Equiv c (P ++ g :: Q) (P ++ collapse_parens g :: Q).
Proof.
  intros Hcl g. induction g as [s|d its IH] using item_ind'; [apply Eq_refl|].
  destruct d; try apply Eq_refl.
  destruct its as [|y its1]; [apply Eq_refl|].
  destruct y as [t|d2 its2]; [apply Eq_refl|].
  destruct d2; try apply Eq_refl.
  destruct its1 as [|z its1]; [|apply Eq_refl].
  inversion IH as [|? ? Hy _]; subst.
  change (collapse_parens (Grp DParen [Grp DParen its2])) with (collapse_parens (Grp DParen its2)).
  eapply Eq_step_then; [apply S_nested_parens; exact Hcl|exact Hy].
Qed.

Lemma empty_angle_equiv c out rest :
  Equiv c (rev out ++ Tok s_lt :: Tok s_gt :: rest)
          (rev (match out with
                | p :: out1 => if is_tok p s_coloncolon || is_tok p s_for then out1 else out
                | [] => out
                end) ++ rest).
Proof.
  destruct out as [|p out1]; [apply Eq_step, S_empty_generics|].
  destruct (is_tok p s_coloncolon) eqn:Hp1.
  { apply is_tok_true in Hp1 as ->. cbn [orb]. rewrite rev_cons_app. apply Eq_step, S_empty_turbofish. }
  destruct (is_tok p s_for) eqn:Hp2; cbn [orb]; [|apply Eq_step, S_empty_generics].
  apply is_tok_true in Hp2 as ->. rewrite rev_cons_app. apply Eq_step, S_empty_binder.
Qed.
Lemma nest_collapse_equiv c o out d sub inner rest :
  c <> CMacro -> macro_rules_head out = false -> Equiv (CIn d) sub inner ->
  Equiv c (rev out ++ Grp d sub :: rest)
          (rev out ++ (if o_remove_nested_parens o && negb (arg_pos out)
                       then collapse_parens (Grp d inner) else Grp d inner) :: rest).
Proof.
  intros Hc Hm Hin.
  eapply Eq_trans; [apply Eq_nest; [exact Hc|rewrite macro_def_pos_rev; exact Hm|exact Hin]|].
  destruct (o_remove_nested_parens o && negb (arg_pos out)) eqn:Hp; [|apply Eq_refl].
  apply andb_true_iff in Hp as [_ Hp]. apply negb_true_iff in Hp.
  apply collapse_equiv. rewrite rev_involutive. exact Hp.
Qed.

(* PdeepE asks rec to be sound on the children too: for the body of a macro definition norm_loop calls rec on the
   children, under other options.  skip_inv: skip is set only right after the group of a macro definition or call,
   which is what S_macro_semi asks *)
Definition contents (x : item) : list item := match x with Grp _ s => s | Tok _ => [] end.
Section LoopE.
Variable rec : opts -> option delim -> item -> list item.
Definition PrecE (x : item) : Prop := forall o ctx, Equiv (sctx_of ctx) (contents x) (rec o ctx x).
Definition PdeepE (x : item) : Prop := PrecE x /\ Forall PrecE (contents x).
Definition skip_inv (skip : bool) (out : list item) : Prop :=
  skip = true -> exists g out0, out = g :: out0 /\ macro_def_pos (rev out0) || macro_call_pos (rev out0) = true.

Lemma norm_loop_equiv items : forall o ctx out skip,
  Forall PdeepE items -> skip_inv skip out ->
  Equiv (sctx_of ctx) (rev out ++ items) (norm_loop rec o ctx out skip items).
Proof.
  induction items as [|x rest IH] using tails_ind; intros o ctx out skip HF Hsk; set (c := sctx_of ctx).
  { cbn [norm_loop]. rewrite app_nil_r.
    eapply Eq_trans; [apply (glue_equiv c (rev out) [])|apply rewrite_equiv]. }
  inversion HF as [|? ? Hx HF']; subst.
  assert (Hnoskip : forall out', skip_inv false out') by (intros out' H; discriminate).
  assert (Hpush : forall g sk, skip_inv sk (g :: out) ->
            Equiv c (rev out ++ g :: rest) (norm_loop rec o ctx (g :: out) sk rest)).
  { intros g sk Hsk'. rewrite <- rev_cons_app. apply (IH 0%nat); [exact HF'|exact Hsk']. }
  assert (Hmacro : forall g, macro_def_pos (rev out) || macro_call_pos (rev out) = true ->
            Equiv c (rev out ++ g :: rest) (norm_loop rec o ctx (g :: out) true rest)).
  { intros g Hpos. apply Hpush. intros _. exists g, out. split; [reflexivity|exact Hpos]. }
  cbn [norm_loop].
  destruct (skip && is_tok x s_semi) eqn:Hs.
  { apply andb_true_iff in Hs as [-> Hs2]. apply is_tok_true in Hs2 as ->.
    destruct (Hsk eq_refl) as [g [out0 [-> Hpos]]].
    rewrite rev_cons_app. eapply Eq_step_then; [apply S_macro_semi; exact Hpos|].
    rewrite <- rev_cons_app. apply (IH 0%nat); [exact HF'|exact Hsk]. }
  clear Hs Hsk skip.
  destruct x as [t|d sub].
  - pose proof (Hpush (Tok t) false (Hnoskip _)) as Hdef.
    destruct rest as [|y rest']; [exact Hdef|].
    destruct (eqb_text t s_lt && is_tok y s_gt) eqn:Hlt; [|exact Hdef].
    apply andb_true_iff in Hlt as [Ht Hy]. apply eqb_text_spec in Ht as ->. apply is_tok_true in Hy as ->.
    inversion HF' as [|? ? _ HF'']; subst.
    eapply Eq_trans; [apply empty_angle_equiv|]. apply (IH 1%nat); [exact HF''|apply Hnoskip].
  - destruct Hx as [Hx Hsub]. cbn [contents] in Hsub.
    destruct (macro_rules_head out) eqn:Hm.
    + rewrite <- macro_def_pos_rev in Hm.
      assert (Hpos : macro_def_pos (rev out) || macro_call_pos (rev out) = true) by (rewrite Hm; reflexivity).
      eapply Eq_trans; [|apply Hmacro, Hpos].
      eapply Eq_trans; [|apply Eq_step, S_macro_delim, Hpos].
      apply Eq_macro_body; [apply sctx_of_not_macro|exact Hm|].
      set (sub2 := map _ sub).
      replace sub with (map fst sub2) at 1 by (unfold sub2; rewrite map_map; apply map_id).
      apply macro_def_equiv, Forall_map. eapply Forall_impl; [|exact Hsub].
      intros c0 Hc d0 s Hd. cbn [fst snd] in *. subst c0. apply (Hc (set_macro_def o) (Some DBrace)).
    + cbv zeta.
      eapply Eq_trans; [apply (nest_collapse_equiv c o); [apply sctx_of_not_macro|exact Hm|apply (Hx o (Some d))]|].
      set (g := if o_remove_nested_parens o && negb (arg_pos out) then collapse_parens _ else Grp d _). clearbody g.
      assert (Hrest : Equiv c (rev out ++ g :: rest)
                (if is_tok_o (hd_error out) s_bang && match out with _ :: y :: _ => is_ident y | _ => false end
                 then norm_loop rec o ctx (match g with Grp _ its => Grp DParen its | Tok _ => g end :: out) true rest
                 else norm_loop rec o ctx (g :: out) false rest)).
      { destruct (is_tok_o (hd_error out) s_bang && match out with _ :: y :: _ => is_ident y | _ => false end) eqn:Hmc;
          [|apply Hpush, Hnoskip].
        assert (Hpos : macro_def_pos (rev out) || macro_call_pos (rev out) = true).
        { rewrite macro_call_pos_rev, Hmc. apply orb_true_r. }
        eapply Eq_trans; [|apply Hmacro, Hpos].
        destruct g as [t|d1 its1]; [apply Eq_refl|]. apply Eq_step, S_macro_delim, Hpos. }
      (* the match on g = Grp DParen [Tok t]; every other shape gives None *)
      destruct g as [t|[| |] [|[t|d3 s3] [|z its]]]; try exact Hrest.
      destruct (starts_with_digit t && negb (arg_pos out)) eqn:Hl; [|exact Hrest].
      apply andb_true_iff in Hl as [Hl1 Hl2]. apply negb_true_iff in Hl2.
      eapply Eq_step_then; [apply S_literal_parens; [rewrite rev_involutive; exact Hl2|exact Hl1]|].
      apply Hpush, Hnoskip.
Qed.
End LoopE.

Lemma norm_in_deepE x : PdeepE norm_in x.
Proof.
  induction x as [s|d its IH] using item_ind'.
  - split; [intros o ctx; apply Eq_refl|constructor].
  - split; [|exact (Forall_impl _ (fun y Hy => proj1 Hy) IH)].
    intros o ctx. cbn [norm_in contents].
    apply (norm_loop_equiv norm_in its o ctx [] false IH). intros Hf. discriminate.
Qed.
Lemma norm_seq_equiv_lemma o ctx items : Equiv (sctx_of ctx) items (norm_seq o ctx items).
Proof. exact (proj1 (norm_in_deepE (Grp DParen items)) o ctx). Qed.
Lemma norm_core_sound_lemma o a b : norm_core_items o a = norm_core_items o b ->
  Equiv CTop (tree o (significant a)) (tree o (significant b)).
Proof.
  unfold norm_core_items. intros H.
  eapply Eq_trans; [apply (norm_seq_equiv_lemma o None)|]. rewrite H.
  apply Eq_sym. apply (norm_seq_equiv_lemma o None).
Qed.

(* the relation is not trivial: equivalent trees have the same essential atoms in the same order.  Apart from glue, a
   step only inserts, deletes or exchanges delimiters and inessential tokens, and E_item of these computes to [] *)
Lemma Step_E c a b : Step c a b -> E a = E b.
Proof.
  intros H. destruct H; repeat rewrite ?E_app, ?E_cons, ?E_grp; rewrite ?app_nil_r; try reflexivity.
  (* S_glue *)
  rewrite (glue_pair_ess _ _ H), <- app_assoc. reflexivity.
Qed.
Lemma Equiv_E c a b : Equiv c a b -> E a = E b.
Proof.
  intros H. induction H as [c a|c a b _ IH|c a b e _ IH1 _ IH2|c a b Hs|c pre d its its' post _ _ _ IH
                            |c pre d its its' post _ _ _ IH|c pre d1 m d2 body body' post _ _ _ _ IH].
  - reflexivity.
  - symmetry. exact IH.
  - rewrite IH1. exact IH2.
  - apply (Step_E _ _ _ Hs).
  - rewrite !E_app, !E_cons, !E_grp, IH. reflexivity.
  - rewrite !E_app, !E_cons, !E_grp, IH. reflexivity.
  - rewrite !E_app, !E_cons, !E_grp, IH. reflexivity.
Qed.
(* P2 for the core passes *)
Lemma norm_core_preserves_essential o ts : ess (norm_core o ts) = ess (atoms_of o ts).
Proof.
  unfold norm_core, norm_core_items, atoms_of. rewrite !ess_flatten.
  symmetry. exact (Equiv_E _ _ _ (norm_seq_equiv_lemma o None _)).
Qed.

Fixpoint M_item (x : item) : list text :=
  match x with
  | Tok t => ess_md [t]
  | Grp _ its => flat_map M_item its
  end.
Definition M (seq : list item) : list text := flat_map M_item seq.
Lemma ess_md_flatten seq : ess_md (flatten seq) = M seq.
Proof. apply (atoms_flatten essential_md M_item); try reflexivity; intros d; destruct d; reflexivity. Qed.
Lemma M_rev_cons x out : M (rev (x :: out)) = M (rev out) ++ M_item x.
Proof. apply flat_map_rev_cons. Qed.
Lemma Mt_comma : M_item (Tok s_comma) = []. Proof. reflexivity. Qed.

Definition md_push (x : item) (out : list item) : list item :=
  match x, out with
  | Grp DBrack [dv; Grp _ b], h1 :: Grp DBrack [dv0; Grp _ a] :: h3 :: out' =>
      if is_tok dv s_derive && is_tok h1 s_hash && is_tok dv0 s_derive && is_tok h3 s_hash then
        Grp DBrack [Tok s_derive; Grp DParen (a ++ (if nonempty a && nonempty b then [Tok s_comma] else []) ++ b)]
        :: h3 :: out'
      else x :: out
  | _, _ => x :: out
  end.
Lemma md_loop_eq rec out x rest : md_loop rec out (x :: rest) = md_loop rec (md_push (rec x) out) rest.
Proof.
  cbn [md_loop]. cbv zeta. unfold md_push.
  destruct (rec x) as [t|[| |] [|dv [|[t|d2 b] [|z its]]]]; try reflexivity.
  destruct out as [|h1 [|[t|[| |] [|dv0 [|[t|d1 a] [|z its3]]]] [|h3 out']]]; try reflexivity.
  destruct (is_tok dv s_derive && _ && _ && _); reflexivity.
Qed.
Lemma md_push_cases x out : md_push x out = x :: out \/
  exists d1 a d2 b out', x = Grp DBrack [Tok s_derive; Grp d2 b] /\
    out = Tok s_hash :: Grp DBrack [Tok s_derive; Grp d1 a] :: Tok s_hash :: out' /\
    md_push x out = Grp DBrack [Tok s_derive; Grp DParen (a ++ (if nonempty a && nonempty b then [Tok s_comma] else []) ++ b)]
                    :: Tok s_hash :: out'.
Proof.
  unfold md_push.
  destruct x as [t|[| |] [|dv [|[t|d2 b] [|z its]]]]; try (left; reflexivity).
  destruct out as [|h1 [|[t|[| |] [|dv0 [|[t|d1 a] [|z its3]]]] [|h3 out']]]; try (left; reflexivity).
  destruct (is_tok dv s_derive && is_tok h1 s_hash && is_tok dv0 s_derive && is_tok h3 s_hash) eqn:Hc; [right|left; reflexivity].
  apply andb_true_iff in Hc as [Hc H4]. apply andb_true_iff in Hc as [Hc H3]. apply is_tok_andb in Hc as [-> H2].
  apply is_tok_true in H2 as ->. apply is_tok_true in H3 as ->. apply is_tok_true in H4 as ->.
  exists d1, a, d2, b, out'. repeat split.
Qed.
Lemma M_md_push x out : M (rev (md_push x out)) = M (rev out) ++ M_item x.
Proof.
  destruct (md_push_cases x out) as [->|(d1 & a & d2 & b & out' & -> & -> & ->)]; [apply M_rev_cons|].
  rewrite !M_rev_cons. cbn [M_item flat_map]. unfold M. rewrite !flat_map_app.
  destruct (nonempty a && nonempty b); cbn [flat_map app]; rewrite ?app_nil_r, <- ?app_assoc; reflexivity.
Qed.
Lemma M_md_loop rec seq : forall out,
  Forall (fun x => M_item (rec x) = M_item x) seq -> M (md_loop rec out seq) = M (rev out) ++ M seq.
Proof.
  induction seq as [|x rest IH]; intros out HF; [cbn [md_loop M flat_map]; rewrite app_nil_r; reflexivity|].
  inversion HF as [|? ? Hx HF']; subst.
  rewrite md_loop_eq, IH, M_md_push, Hx, <- app_assoc by exact HF'. reflexivity.
Qed.
Lemma M_md_item x : M_item (md_item x) = M_item x.
Proof.
  induction x as [s|d its IH] using item_ind'; [reflexivity|].
  cbn [md_item M_item]. apply (M_md_loop md_item its [] IH).
Qed.
Lemma merge_derives_preserves seq : ess_md (flatten (merge_derives seq)) = ess_md (flatten seq).
Proof. rewrite !ess_md_flatten. exact (M_md_item (Grp DParen seq)). Qed.

Lemma ess_md_of_ess l : ess_md l = filter (fun t => negb (mem_text t [s_hash; s_derive])) (ess l).
Proof.
  unfold ess_md, ess, essential_md. induction (unglue l) as [|t r IH]; [reflexivity|].
  cbn [filter]. destruct (essential t); cbn [andb filter]; rewrite IH; reflexivity.
Qed.
Lemma norm_noreorder_preserves o ts : ess_md (norm_noreorder o ts) = ess_md (atoms_of o ts).
Proof.
  unfold norm_noreorder.
  assert (H : ess_md (flatten (norm_core_items o ts)) = ess_md (atoms_of o ts)).
  { rewrite !ess_md_of_ess. f_equal. apply norm_core_preserves_essential. }
  destruct (o_merge_derives o); [rewrite merge_derives_preserves|]; exact H.
Qed.

Lemma stmts_split_concat seq : forall cur stmts tail,
  stmts_split cur seq = (stmts, tail) -> rev cur ++ seq = concat stmts ++ tail.
Proof.
  induction seq as [|x r IH]; intros cur stmts tail; cbn [stmts_split].
  - intros H. inversion H; subst. rewrite app_nil_r. reflexivity.
  - destruct (is_inner_doc x).
    + destruct (stmts_split [] r) as [ss tl] eqn:Hs. intros H. inversion H; subst.
      specialize (IH [] ss tail Hs). cbn [rev app] in IH. rewrite concat_app. cbn [concat].
      rewrite <- !app_assoc. cbn [app]. rewrite <- IH.
      destruct cur as [|c cur]; [reflexivity|]. cbn [concat]. rewrite app_nil_r. reflexivity.
    + cbv zeta. destruct (is_tok x s_semi || _ || _).
      * destruct (stmts_split [] r) as [ss tl] eqn:Hs. intros H. inversion H; subst.
        specialize (IH [] ss tail Hs). cbn [rev app] in IH. cbn [concat rev]. rewrite <- !app_assoc. cbn [app].
        rewrite <- IH. reflexivity.
      * intros H. specialize (IH (x :: cur) stmts tail H). cbn [rev] in IH. rewrite <- app_assoc in IH. exact IH.
Qed.

Lemma runs_outside o stmts : forall cur, Sub (concat (filter nonrun stmts)) (runs o cur stmts).
Proof.
  induction stmts as [|st r IH]; intros cur; cbn [runs filter].
  - apply Sub_nil_l.
  - unfold nonrun at 1. destruct (stmt_kind st) as [[[k head] body]|] eqn:Hk.
    + destruct cur as [[k0 sts]|]; [destruct (rkind_eqb k0 k)|]; try apply IH.
      apply Sub_skip_app. apply IH.
    + cbn [concat]. apply Sub_skip_app. apply Sub_app; [apply Sub_refl|apply IH].
Qed.
Lemma reorder_runs_outside_lemma o seq stmts tail :
  stmts_split [] seq = (stmts, tail) ->
  seq = concat stmts ++ tail /\ Sub (concat (filter nonrun stmts) ++ tail) (reorder_runs o seq).
Proof.
  intros H. split.
  - apply stmts_split_concat in H. exact H.
  - unfold reorder_runs. rewrite H. apply Sub_app; [apply runs_outside|apply Sub_refl].
Qed.

Lemma sort_texts_perm l : Permutation (sort_texts l) l.
Proof. apply (isort_perm text_leb insert_sorted); reflexivity. Qed.
Lemma insert_uniq_In x l y : In y (insert_uniq x l) <-> y = x \/ In y l.
Proof.
  induction l as [|z l IH]; cbn [insert_uniq In].
  - split; intros [H|H]; auto.
  - destruct (eqb_text x z) eqn:He.
    + apply eqb_text_spec in He. subst z. cbn [In]. split; intros H; [right; exact H|destruct H as [->|H]; [left; reflexivity|exact H]].
    + destruct (text_leb x z); cbn [In]; [split; intros [H|H]; auto|].
      rewrite IH. split; intros H; tauto.
Qed.
Lemma fold_insert_uniq_In l ls y : In y (fold_right insert_uniq ls l) <-> In y l \/ In y ls.
Proof.
  induction l as [|x l IH]; cbn [fold_right In]; [tauto|].
  rewrite insert_uniq_In, IH. split; intros H; [destruct H as [-> |[H|H]]|destruct H as [[<- |H]|H]]; auto.
Qed.
Lemma sort_uniq_In l y : In y (sort_uniq l) <-> In y l.
Proof. unfold sort_uniq. rewrite fold_insert_uniq_In. cbn [In]. tauto. Qed.
Lemma flush_run_items_perm o k sts : k <> RUse ->
  Permutation (flush_run o (Some (k, sts)))
              (map (fun e => Tok (item_string (join [SP] (flatten (snd e))))) (rev sts)).
Proof.
  intros Hk. rewrite <- (map_map (fun e : run_entry => join [SP] (flatten (snd e))) (fun s => Tok (item_string s))).
  replace (map (fun e : run_entry => join [SP] (flatten (snd e))) (rev sts))
    with (map (fun e : run_entry => let '(_, _, st) := e in join [SP] (flatten st)) (rev sts))
    by (apply map_ext; intros [[h b] st]; reflexivity).
  destruct k; [contradiction Hk; reflexivity| |]; apply Permutation_map, sort_texts_perm.
Qed.

(* U = the tokens of the use tree; the [] of okseg is the segment that parse_loop puts for a leading `::` *)
Section UseSound.
Variable U : list text.
Definition okseg (s : text) : Prop := s = [] \/ In s U.
Definition eok (e : uentry) : Prop :=
  Forall okseg (fst e) /\ (forall a, snd e = Some a -> In a U).
Definition stok (st : pstate) : Prop :=
  match st with
  | PScan segs _ => Forall okseg segs
  | PAlias segs => Forall okseg segs
  | PDone ls => Forall eok ls
  end.
Definition inU (x : item) : Prop := forall s, In s (flatten_item x) -> In s U.

Lemma leaf_ok prefix segs alias :
  Forall okseg prefix -> Forall okseg segs -> (forall a, alias = Some a -> In a U) ->
  Forall eok (leaf prefix segs alias).
Proof.
  intros Hp Hs Ha. unfold leaf.
  set (path0 := prefix ++ rev segs).
  assert (H0 : Forall okseg path0) by (apply Forall_app; split; [exact Hp|apply Forall_rev; exact Hs]).
  set (path := match rev path0 with l :: _ :: _ => if eqb_text l s_self then removelast path0 else path0 | _ => path0 end).
  assert (H1 : Forall okseg path).
  { subst path. destruct (rev path0) as [|l [|l2 r]]; try exact H0.
    destruct (eqb_text l s_self); [apply Forall_removelast|]; exact H0. }
  clearbody path. destruct (rev path) as [|l r]; [constructor|].
  constructor; [|constructor]. split; [exact H1|].
  cbn [snd]. intros a. destruct alias as [a0|]; [|discriminate].
  destruct (eqb_text a0 l); [discriminate|]. intros H. apply Ha. exact H.
Qed.
Lemma pfinish_ok prefix st : Forall okseg prefix -> stok st -> Forall eok (pfinish prefix st).
Proof.
  intros Hp Hst. destruct st as [segs first|segs|ls]; cbn [pfinish stok] in *.
  - destruct first; [constructor|]. apply leaf_ok; [exact Hp|exact Hst|discriminate].
  - apply leaf_ok; [exact Hp|exact Hst|discriminate].
  - exact Hst.
Qed.

Section Loop.
Variable rec : list text -> item -> list uentry.
Variable dr : bool.
Lemma parse_loop_ok ts : forall prefix st,
  Forall okseg prefix -> stok st -> Forall inU ts ->
  Forall (fun t => forall p, Forall okseg p -> inU t -> Forall eok (rec p t)) ts ->
  Forall eok (parse_loop rec dr prefix st ts).
Proof.
  induction ts as [|t ts IH]; intros prefix st Hp Hst HU Hrec; cbn [parse_loop].
  - apply pfinish_ok; assumption.
  - inversion HU as [|? ? Ht HU']; subst. inversion Hrec as [|? ? Hr Hrec']; subst.
    assert (Hgo : forall st', stok st' -> Forall eok (parse_loop rec dr prefix st' ts)).
    { intros st' Hst'. apply IH; assumption. }
    destruct (is_tok t s_comma).
    { apply Forall_app. split; [apply pfinish_ok; assumption|]. apply Hgo. constructor. }
    destruct st as [segs first|segs|ls]; cbn [stok] in Hst.
    + destruct t as [s|d sub].
      * destruct (eqb_text s s_as); [apply Hgo, Hst|].
        destruct (eqb_text s s_coloncolon); apply Hgo; cbn [stok].
        -- destruct (first && match prefix with [] => true | _ :: _ => false end && negb dr); [|exact Hst].
           constructor; [left; reflexivity|exact Hst].
        -- constructor; [right; apply Ht; left; reflexivity|exact Hst].
      * apply Hgo, Hr; [|exact Ht]. apply Forall_app. split; [exact Hp|apply Forall_rev; exact Hst].
    + apply Hgo, leaf_ok; [exact Hp|exact Hst|].
      intros a Ha. destruct t as [s|d sub]; [|discriminate]. inversion Ha; subst. apply Ht. left. reflexivity.
    + apply Hgo, Hst.
Qed.
End Loop.

Lemma inU_sub d sub : inU (Grp d sub) -> Forall inU sub.
Proof.
  intros H. apply Forall_forall. intros y Hy s Hs. apply H. cbn [flatten_item]. right.
  apply in_or_app. left. apply in_flat_map. exists y. split; assumption.
Qed.
Lemma parse_grp_ok dr x : forall prefix, Forall okseg prefix -> inU x -> Forall eok (parse_grp dr prefix x).
Proof.
  induction x as [s|d sub IH] using item_ind'; intros prefix Hp HU; cbn [parse_grp]; [constructor|].
  apply parse_loop_ok; [exact Hp|constructor|apply inU_sub with d; exact HU|exact IH].
Qed.
End UseSound.

Lemma use_leaves_sound_lemma dr items path alias :
  In (path, alias) (parse_entries dr items) ->
  (forall seg, In seg path -> seg = [] \/ In seg (flatten items)) /\
  (forall a, alias = Some a -> In a (flatten items)).
Proof.
  intros H. unfold parse_entries in H.
  assert (HF : Forall (eok (flatten items)) (parse_loop (parse_grp dr) dr [] (PScan [] true) items)).
  { assert (HU : Forall (inU (flatten items)) items).
    { apply Forall_forall. intros y Hy s Hs. unfold flatten. apply in_flat_map. exists y. split; assumption. }
    apply parse_loop_ok; [constructor|constructor|exact HU|].
    apply Forall_forall. intros y _ p. apply parse_grp_ok. }
  rewrite Forall_forall in HF. specialize (HF _ H). destruct HF as [H1 H2]. cbn [fst snd] in *.
  split; [|exact H2]. intros seg Hs. rewrite Forall_forall in H1. apply H1. exact Hs.
Qed.

Lemma use_leaves_set_lemma dr items s :
  In s (use_leaves dr items) <-> exists e, In e (parse_entries dr items) /\ s = render_leaf e.
Proof.
  unfold use_leaves, parse_use. rewrite sort_uniq_In, in_map_iff.
  split; intros [e [H1 H2]]; exists e; split; auto.
Qed.

Lemma add_class_keys h l cs h' :
  In h' (map fst (add_class h l cs)) <-> In h' (map fst cs) \/ h = h'.
Proof.
  induction cs as [|[h0 ls0] cs IH]; cbn [add_class map fst In]; [tauto|].
  destruct (eqb_texts h0 h) eqn:He; cbn [map fst In]; [|rewrite IH; tauto].
  apply eqb_texts_spec in He as ->. tauto.
Qed.
Lemma add_class_nodup h l cs : NoDup (map fst cs) -> NoDup (map fst (add_class h l cs)).
Proof.
  induction cs as [|[h0 ls0] cs IH]; cbn [add_class map fst]; intros H.
  - constructor; [intros []|constructor].
  - inversion H as [|? ? Hn Hd]; subst. destruct (eqb_texts h0 h) eqn:He; cbn [map fst].
    + constructor; assumption.
    + constructor; [|apply IH; exact Hd].
      rewrite add_class_keys. intros [Hi|Hi]; [contradiction|].
      subst h0. assert (Ht : eqb_texts h h = true) by (apply eqb_texts_spec; reflexivity). congruence.
Qed.
(* the leaves under a head, over all classes with that head: add_class keeps this with no appeal to NoDup *)
Definition leaves_of (cs : list (list text * list text)) (h : list text) (s : text) : Prop :=
  exists ls, In (h, ls) cs /\ In s ls.
Lemma leaves_of_cons h0 ls0 cs h s : leaves_of ((h0, ls0) :: cs) h s <-> (h0 = h /\ In s ls0) \/ leaves_of cs h s.
Proof.
  unfold leaves_of. cbn [In]. split.
  - intros [ls [[H|H] Hs]]; [inversion H; subst; left; auto|right; exists ls; auto].
  - intros [[-> Hs]|[ls [H Hs]]]; [exists ls0; auto|exists ls; auto].
Qed.
Lemma add_class_leaves h l cs h' s :
  leaves_of (add_class h l cs) h' s <-> leaves_of cs h' s \/ (h = h' /\ In s l).
Proof.
  induction cs as [|[h0 ls0] cs IH]; cbn [add_class].
  - rewrite leaves_of_cons, sort_uniq_In. tauto.
  - destruct (eqb_texts h0 h) eqn:He.
    + apply eqb_texts_spec in He as ->. rewrite !leaves_of_cons, fold_insert_uniq_In. tauto.
    + rewrite !leaves_of_cons, IH. tauto.
Qed.

(* the invariant of the fold in flush_run: UseClasses with its last clause through leaves_of; class_step is the
   function that flush_run folds *)
Definition ClassInv (o : opts) (sts : list run_entry) (cs : list (list text * list text)) : Prop :=
  NoDup (map fst cs) /\
  (forall h, In h (map fst cs) <-> exists e, In e sts /\ entry_head e = h) /\
  (forall h s, leaves_of cs h s <-> exists e, In e sts /\ entry_head e = h /\ In s (entry_leaves o e)).
Definition class_step (o : opts) (cs : list (list text * list text)) (e : run_entry) :=
  let '(head, body, _) := e in
  add_class (flatten head) (parse_use (o_edition2015 o) (removelast (tl body))) cs.
Lemma class_step_inv o sts cs e : ClassInv o sts cs -> ClassInv o (sts ++ [e]) (class_step o cs e).
Proof.
  intros (Hd & Hk & Hl). destruct e as [[head body] st]. unfold class_step.
  split; [apply add_class_nodup; exact Hd|]. split.
  - intros h. rewrite add_class_keys, Hk, exists_in_snoc. reflexivity.
  - intros h s. rewrite add_class_leaves, Hl, exists_in_snoc. reflexivity.
Qed.
Lemma class_fold_inv o sts : ClassInv o (rev sts) (fold_left (class_step o) (rev sts) []).
Proof.
  induction sts as [|e sts IH]; [|cbn [rev]; rewrite fold_left_app; apply class_step_inv, IH].
  split; [constructor|]. split.
  - intros h. split; [intros []|intros [e [[] _]]].
  - intros h s. split; [intros [ls [[] _]]|intros [e [[] _]]].
Qed.
Lemma sort_classes_perm l : Permutation (fold_right insert_class [] l) l.
Proof. apply (isort_perm (fun c y => texts_leb (fst c) (fst y)) insert_class); reflexivity. Qed.
Lemma ClassInv_UseClasses o sts cs : ClassInv o sts cs -> UseClasses o sts cs.
Proof.
  intros (Hd & Hk & Hl). split; [exact Hd|]. split; [exact Hk|].
  intros h ls Hin s. rewrite <- Hl. split.
  - intros Hs. exists ls. split; assumption.
  - intros [ls' [Hin' Hs]]. rewrite (nodup_fst_unique cs h ls ls' Hd Hin Hin'). exact Hs.
Qed.
Lemma UseClasses_perm o sts cs cs' : Permutation cs cs' -> UseClasses o sts cs -> UseClasses o sts cs'.
Proof.
  intros Hp (Hd & Hk & Hl). pose proof (Permutation_map fst Hp) as Hpk.
  split; [exact (Permutation_NoDup Hpk Hd)|]. split.
  - intros h. rewrite <- Hk. split; apply Permutation_in; [apply Permutation_sym|]; exact Hpk.
  - intros h ls Hin. apply Hl. exact (Permutation_in _ (Permutation_sym Hp) Hin).
Qed.
Lemma flush_run_use_spec o sts :
  exists cs, flush_run o (Some (RUse, sts)) = map (fun c => Tok (use_string c)) cs /\ UseClasses o (rev sts) cs.
Proof.
  cbn [flush_run]. eexists. split; [reflexivity|].
  apply (UseClasses_perm o _ _ _ (Permutation_sym (sort_classes_perm _))), ClassInv_UseClasses.
  exact (class_fold_inv o sts).
Qed.

Lemma flush_run_spec o k sts : sts <> [] -> Forall (entry_kind k) sts ->
  SegSpec o (map snd sts) (flush_run o (Some (k, rev sts))).
Proof.
  intros Hne HF. destruct (rkind_use_dec k) as [->|Hk].
  - destruct (flush_run_use_spec o (rev sts)) as [cs [Heq Hcs]]. rewrite rev_involutive in Hcs.
    (* rewrite does not find the left side of Heq: run_entry is written out in the type of its pair *)
    refine (eq_ind_r (SegSpec o (map snd sts)) _ Heq). apply Seg_use; assumption.
  - pose proof (flush_run_items_perm o k (rev sts) Hk) as Hp. rewrite rev_involutive in Hp.
    apply (Seg_items o k sts); assumption.
Qed.
(* in RS_run sts is in source order; runs and flush_run hold a run reversed.  Both the specification (Segmented_spec)
   and the chain of steps (Segmented_equiv) are read off this *)
Inductive RunSeg (o : opts) : list (list item) -> list item -> Prop :=
| RS_keep st : stmt_kind st = None -> RunSeg o [st] st
| RS_run k sts : sts <> [] -> Forall (entry_kind k) sts -> RunSeg o (map snd sts) (flush_run o (Some (k, rev sts))).
Inductive Segmented (o : opts) : list (list item) -> list item -> Prop :=
| Sg_nil : Segmented o [] []
| Sg_cons sts out stmts outs : RunSeg o sts out -> Segmented o stmts outs -> Segmented o (sts ++ stmts) (out ++ outs).
Definition cur_wf (cur : option run) : Prop :=
  match cur with None => True | Some (k, sts) => sts <> [] /\ Forall (entry_kind k) sts end.
Definition cur_stmts (cur : option run) : list (list item) :=
  match cur with None => [] | Some (_, sts) => map snd (rev sts) end.
Lemma flush_segmented o cur stmts outs : cur_wf cur -> Segmented o stmts outs ->
  Segmented o (cur_stmts cur ++ stmts) (flush_run o cur ++ outs).
Proof.
  destruct cur as [[k sts]|]; [|intros _ H; exact H].
  intros [Hne HF] H. apply Sg_cons; [|exact H].
  pose proof (RS_run o k (rev sts) (rev_not_nil _ Hne) (Forall_rev HF)) as HR. rewrite rev_involutive in HR. exact HR.
Qed.
Lemma runs_segmented o stmts : forall cur, cur_wf cur -> Segmented o (cur_stmts cur ++ stmts) (runs o cur stmts).
Proof.
  induction stmts as [|st r IH]; intros cur Hwf; cbn [runs].
  - rewrite <- (app_nil_r (flush_run o cur)). apply flush_segmented; [exact Hwf|constructor].
  - destruct (stmt_kind st) as [[[k head] body]|] eqn:Hk.
    + assert (Hnew : cur_wf (Some (k, [(head, body, st)]))).
      { split; [discriminate|constructor; [exact Hk|constructor]]. }
      destruct cur as [[k0 sts]|]; [|exact (IH _ Hnew)].
      destruct (rkind_eqb k0 k) eqn:Hkk; [|exact (flush_segmented o _ _ _ Hwf (IH _ Hnew))].
      apply rkind_eqb_true in Hkk as ->. destruct Hwf as [Hne HF].
      specialize (IH (Some (k, (head, body, st) :: sts))). cbn [cur_stmts rev] in *.
      rewrite map_app, <- app_assoc in IH. apply IH. split; [discriminate|constructor; assumption].
    + apply flush_segmented; [exact Hwf|]. exact (Sg_cons o [st] st r _ (RS_keep o st Hk) (IH None I)).
Qed.
Lemma RunSeg_spec o sts out : RunSeg o sts out -> SegSpec o sts out.
Proof. intros [st H|k rs Hne HF]; [apply Seg_keep, H|apply flush_run_spec; assumption]. Qed.
Lemma Segmented_spec o stmts out : Segmented o stmts out ->
  exists segs, stmts = concat (map fst segs) /\ out = concat (map snd segs) /\
               Forall (fun sg => SegSpec o (fst sg) (snd sg)) segs.
Proof.
  intros H. induction H as [|sts out stmts outs Hs _ (segs & -> & -> & HF)]; [exists []; repeat constructor|].
  exists ((sts, out) :: segs). repeat split. constructor; [apply RunSeg_spec, Hs|exact HF].
Qed.
Lemma reorder_runs_level o seq : LevelSpec o seq (reorder_runs o seq).
Proof.
  unfold reorder_runs. destruct (stmts_split [] seq) as [stmts tail] eqn:Hs.
  apply stmts_split_concat in Hs.
  destruct (Segmented_spec o _ _ (runs_segmented o stmts None I)) as (segs & H1 & H2 & H3).
  exists segs, tail. rewrite <- H1, <- H2. split; [exact Hs|split; [reflexivity|exact H3]].
Qed.

Lemma norm_tree_item_spec o x : ItemSpec o x (norm_tree_item o x).
Proof.
  induction x as [s|d its IH] using item_ind'; cbn [norm_tree_item]; [constructor|].
  apply IS_grp. apply TS with (seq' := map (norm_tree_item o) its); [|apply reorder_runs_level].
  apply Forall2_map_r, IH.
Qed.
Lemma norm_tree_spec o seq : TreeSpec o seq (norm_tree o seq).
Proof. pose proof (norm_tree_item_spec o (Grp DParen seq)) as H. inversion H; assumption. Qed.

Definition SubOut (x : item) (out : list text) : Prop := Sub out (flatten_item x).
Lemma concat_outs_sub xs outs : Forall2 SubOut xs outs -> Sub (concat outs) (flatten xs).
Proof.
  intros H. induction H as [|x out xs outs Hx _ IH]; [constructor|].
  cbn [concat]. unfold flatten in *. cbn [flat_map]. apply Sub_app; assumption.
Qed.
Lemma cut_emit_sub_concat stmts : forall outs, Sub (cut_emit stmts outs) (concat outs).
Proof.
  induction stmts as [|st r IH]; intros outs; cbn [cut_emit]; [apply Sub_refl|].
  cbv zeta. rewrite <- (firstn_skipn (length st) outs) at 3. rewrite concat_app.
  destruct (nonrun st); [apply Sub_app; [apply Sub_refl|apply IH]|apply Sub_skip_app; apply IH].
Qed.
Lemma cut_emit_kept stmts : forall tail outs, Forall2 SubOut (concat stmts ++ tail) outs ->
  Sub (cut_emit stmts outs) (flatten (concat (filter nonrun stmts) ++ tail)).
Proof.
  induction stmts as [|st r IH]; intros tail outs HF; cbn [cut_emit concat filter app].
  - apply concat_outs_sub. exact HF.
  - cbv zeta. cbn [concat] in HF. rewrite <- app_assoc in HF.
    apply Forall2_app_inv_l in HF. destruct HF as [o1 [o2 [H1 [H2 ->]]]].
    pose proof (Forall2_len _ _ _ H1) as Hl.
    rewrite Hl, firstn_app, Nat.sub_diag, firstn_all, skipn_app, Nat.sub_diag, skipn_all. cbn [firstn skipn]. rewrite app_nil_r. cbn [app].
    destruct (nonrun st).
    + cbn [concat]. rewrite <- app_assoc. unfold flatten. rewrite flat_map_app. apply Sub_app.
      * apply (concat_outs_sub st o1 H1).
      * apply IH. exact H2.
    + apply IH. exact H2.
Qed.

Lemma level_sub_input stmts seq outs : Forall2 SubOut seq outs -> Sub (cut_emit stmts outs) (flatten seq).
Proof. intros HF. eapply Sub_trans; [apply cut_emit_sub_concat|apply concat_outs_sub, HF]. Qed.
Lemma outside_item_sub_input o x : SubOut x (outside_item o x).
Proof.
  unfold SubOut. induction x as [s|d its IH] using item_ind'; cbn [outside_item flatten_item]; [apply Sub_refl|].
  apply Sub_keep. apply Sub_app; [|apply Sub_refl].
  apply level_sub_input, Forall2_map_r, IH.
Qed.
Lemma outside_sub_input o seq : Sub (outside o seq) (flatten seq).
Proof. apply level_sub_input, Forall2_map_r, Forall_forall. intros x _. apply outside_item_sub_input. Qed.
Lemma level_sub_output o seq' outs : Forall2 SubOut seq' outs ->
  Sub (cut_emit (fst (stmts_split [] seq')) outs) (flatten (reorder_runs o seq')).
Proof.
  intros HF. destruct (stmts_split [] seq') as [stmts tail] eqn:Hs. cbn [fst].
  destruct (reorder_runs_outside_lemma o seq' stmts tail Hs) as [Hc Hsub].
  eapply Sub_trans; [apply (cut_emit_kept stmts tail); rewrite <- Hc; exact HF|].
  unfold flatten. apply Sub_flat_map. exact Hsub.
Qed.
Lemma outside_item_sub_output o x : SubOut (norm_tree_item o x) (outside_item o x).
Proof.
  unfold SubOut. induction x as [s|d its IH] using item_ind'; cbn [outside_item norm_tree_item flatten_item]; [apply Sub_refl|].
  apply Sub_keep. apply Sub_app; [|apply Sub_refl].
  apply level_sub_output, Forall2_map_map, IH.
Qed.
Lemma outside_sub_output o seq : Sub (outside o seq) (flatten (norm_tree o seq)).
Proof.
  unfold outside, norm_tree. apply level_sub_output, Forall2_map_map, Forall_forall. intros x _. apply outside_item_sub_output.
Qed.

Lemma norm_preserves_essential_lemma o ts :
  ess_md (flatten (post_core_items o ts)) = ess_md (atoms_of o ts) /\
  Sub (outside o (post_core_items o ts)) (flatten (post_core_items o ts)) /\
  Sub (outside o (post_core_items o ts)) (norm o ts) /\
  TreeSpec o (post_core_items o ts) (norm_items o ts).
Proof.
  (* with T = post_core_items o ts, by definition:  norm_noreorder o ts = flatten T,  norm_items o ts = norm_tree o T,
     norm o ts = flatten (norm_tree o T) *)
  split; [exact (norm_noreorder_preserves o ts)|].
  split; [apply outside_sub_input|].
  split; [apply outside_sub_output|apply norm_tree_spec].
Qed.
Lemma norm_outside_essential_lemma o ts :
  Sub (ess_md (outside o (post_core_items o ts))) (ess_md (atoms_of o ts)) /\
  Sub (ess_md (outside o (post_core_items o ts))) (ess_md (norm o ts)).
Proof.
  destruct (norm_preserves_essential_lemma o ts) as (H1 & H2 & H3 & _).
  split; [rewrite <- H1|]; apply Sub_ess_md; assumption.
Qed.

Lemma Equiv_EquivF o c a b : Equiv c a b -> EquivF o c a b.
Proof.
  intros H. induction H as [c a|c a b _ IH|c a b e _ IH1 _ IH2|c a b Hs|c pre d its its' post Hc Hm _ IH
                            |c pre d its its' post Hc Hm _ IH|c pre d1 m d2 body body' post Hc H1 H2 _ IH].
  - apply EF_refl.
  - apply EF_sym. exact IH.
  - eapply EF_trans; [exact IH1|exact IH2].
  - apply EF_step. apply SF_core. exact Hs.
  - apply EF_nest; assumption.
  - apply EF_macro_body; assumption.
  - apply EF_macro_arm; assumption.
Qed.

Section MapSafe.
Variable o : opts.
Variable f : item -> item.
Hypothesis f_tok : forall t, f (Tok t) = Tok t.
Definition item_sound (x : item) : Prop :=
  forall d its, x = Grp d its -> msafe f x -> exists its', f x = Grp d its' /\ EquivF o (CIn d) its its'.
Lemma map_safe_equiv c : c <> CMacro -> forall l P,
  Forall item_sound l -> safe_loop (msafe f) f P l -> EquivF o c (rev P ++ l) (rev P ++ map f l).
Proof.
  intros Hc. induction l as [|x r IH]; intros P HF Hs; [apply EF_refl|].
  inversion HF as [|? ? Hx HF']; subst. cbn [safe_loop] in Hs. destruct Hs as [Hs1 Hs2].
  cbn [map]. specialize (IH (f x :: P) HF' Hs2). rewrite !rev_cons_app in IH.
  eapply EF_trans; [|exact IH].
  destruct x as [t|d its].
  - rewrite f_tok. apply EF_refl.
  - destruct (macro_rules_head P) eqn:Hm.
    + rewrite Hs1. apply EF_refl.
    + destruct (Hx d its eq_refl Hs1) as [its' [-> He]].
      apply EF_nest; [exact Hc|rewrite macro_def_pos_rev; exact Hm|exact He].
Qed.
Variable level : list item -> list item.
Hypothesis f_grp : forall d its, f (Grp d its) = Grp d (level (map f its)).
Hypothesis level_equiv : forall c seq, c <> CMacro -> EquivF o c seq (level seq).
Lemma level_item_sound x : item_sound x.
Proof.
  induction x as [s|d its IH] using item_ind'; intros d0 its0 Hx Hs; [discriminate|].
  inversion Hx; subst d0 its0. rewrite f_grp. eexists. split; [reflexivity|].
  eapply EF_trans; [|apply level_equiv; discriminate].
  apply (map_safe_equiv (CIn d) ltac:(discriminate) its [] IH Hs).
Qed.
Lemma levels_equiv c seq : c <> CMacro -> msafe_seq f seq -> EquivF o c seq (level (map f seq)).
Proof.
  intros Hc Hs. eapply EF_trans; [|apply level_equiv, Hc].
  apply (map_safe_equiv c Hc seq []); [|exact Hs]. apply Forall_forall. intros x _. apply level_item_sound.
Qed.
End MapSafe.

Lemma md_loop_map rec seq : forall out, md_loop rec out seq = md_loop (fun x => x) out (map rec seq).
Proof.
  induction seq as [|x r IH]; intros out; [reflexivity|]. cbn [map]. rewrite !md_loop_eq. apply IH.
Qed.
Lemma md_push_equiv o c x out Q : c <> CMacro -> EquivF o c (rev out ++ x :: Q) (rev (md_push x out) ++ Q).
Proof.
  intros Hc. destruct (md_push_cases x out) as [->|(d1 & a & d2 & b & out' & -> & -> & ->)];
    [rewrite rev_cons_app; apply EF_refl|].
  cbn [rev]. rewrite <- !app_assoc. apply EF_step, SF_merge_derives, Hc.
Qed.
Lemma md_level_equiv o c seq : c <> CMacro -> forall out,
  EquivF o c (rev out ++ seq) (md_loop (fun x => x) out seq).
Proof.
  intros Hc. induction seq as [|x rest IH]; intros out; [cbn [md_loop]; rewrite app_nil_r; apply EF_refl|].
  rewrite md_loop_eq. eapply EF_trans; [apply md_push_equiv, Hc|apply IH].
Qed.
Lemma merge_derives_equiv o c seq : c <> CMacro -> msafe_seq md_item seq -> EquivF o c seq (merge_derives seq).
Proof.
  unfold merge_derives. rewrite md_loop_map.
  apply (levels_equiv o md_item (fun t => eq_refl) (md_loop (fun x => x) [])).
  - intros d its. cbn [md_item]. rewrite md_loop_map. reflexivity.
  - intros c0 s Hc0. apply (md_level_equiv o c0 s Hc0 []).
Qed.

Lemma RunSeg_equiv o c sts out : c <> CMacro -> RunSeg o sts out ->
  forall P Q, EquivF o c (P ++ concat sts ++ Q) (P ++ out ++ Q).
Proof.
  intros Hc [st H|k rs Hne HF] P Q; [cbn [concat]; rewrite app_nil_r; apply EF_refl|].
  apply EF_step. destruct (rkind_use_dec k) as [->|Hk]; [apply SF_import_regroup|apply SF_reorder_items]; assumption.
Qed.
Lemma Segmented_equiv o c stmts out : c <> CMacro -> Segmented o stmts out ->
  forall P Q, EquivF o c (P ++ concat stmts ++ Q) (P ++ out ++ Q).
Proof.
  intros Hc H. induction H as [|sts out stmts outs Hs _ IH]; intros P Q; [apply EF_refl|].
  rewrite concat_app, <- !app_assoc. eapply EF_trans; [apply (RunSeg_equiv o c sts out Hc Hs)|].
  rewrite !(app_assoc P). apply IH.
Qed.
Lemma reorder_runs_equiv o c seq : c <> CMacro -> EquivF o c seq (reorder_runs o seq).
Proof.
  intros Hc. unfold reorder_runs. destruct (stmts_split [] seq) as [stmts tail] eqn:Hs.
  apply stmts_split_concat in Hs. cbn [rev app] in Hs. rewrite Hs.
  apply (Segmented_equiv o c stmts _ Hc (runs_segmented o stmts None I) [] tail).
Qed.
Lemma norm_tree_equiv o c seq : c <> CMacro -> msafe_seq (norm_tree_item o) seq -> EquivF o c seq (norm_tree o seq).
Proof.
  apply (levels_equiv o (norm_tree_item o) (fun t => eq_refl) (reorder_runs o)); [reflexivity|].
  intros c0 s Hc0. apply reorder_runs_equiv, Hc0.
Qed.

Lemma norm_items_equiv o ts : post_safe o ts -> EquivF o CTop (tree o (significant ts)) (norm_items o ts).
Proof.
  intros [Hmd Hnt].
  assert (H1 : EquivF o CTop (tree o (significant ts)) (post_core_items o ts)).
  { unfold post_core_items, norm_core_items in *.
    eapply EF_trans; [apply Equiv_EquivF; apply (norm_seq_equiv_lemma o None)|].
    destruct (o_merge_derives o); [|apply EF_refl].
    apply merge_derives_equiv; [discriminate|apply Hmd; reflexivity]. }
  eapply EF_trans; [exact H1|].
  change (norm_items o ts) with (norm_tree o (post_core_items o ts)).
  apply norm_tree_equiv; [discriminate|exact Hnt].
Qed.
Lemma norm_sound_lemma o a b : post_safe o a -> post_safe o b -> norm_items o a = norm_items o b ->
  EquivF o CTop (tree o (significant a)) (tree o (significant b)).
Proof.
  intros Ha Hb H. eapply EF_trans; [apply norm_items_equiv; exact Ha|]. rewrite H.
  apply EF_sym. apply norm_items_equiv. exact Hb.
Qed.
Lemma import_regroup_lemma o c pre (sts1 sts2 : list run_entry) post :
  c <> CMacro -> sts1 <> [] -> sts2 <> [] -> Forall (entry_kind RUse) sts1 -> Forall (entry_kind RUse) sts2 ->
  flush_run o (Some (RUse, rev sts1)) = flush_run o (Some (RUse, rev sts2)) ->
  EquivF o c (pre ++ concat (map snd sts1) ++ post) (pre ++ concat (map snd sts2) ++ post).
Proof.
  intros Hc H1 H2 F1 F2 He.
  eapply EF_trans; [apply EF_step; apply SF_import_regroup; assumption|]. rewrite He.
  apply EF_sym. apply EF_step. apply SF_import_regroup; assumption.
Qed.

(* the witnesses: token streams as the harness lexer gives them, white space dropped; the kinds by name, where
   Examples.v has the lexer's codes and Run.decode *)
Definition o_default : opts := mkOpts true true false false true true false.
(* /// x pub   (end of line)   use a; *)
Definition w_doc_a : list tok :=
  [(Kdlo, [47; 47; 47; 32; 120; 32; 112; 117; 98]); (Kid, [117; 115; 101]); (Kid, [97]); (Kp, [59])].
(* /// x   (end of line)   pub use a; *)
Definition w_doc_b : list tok :=
  [(Kdlo, [47; 47; 47; 32; 120]); (Kid, [112; 117; 98]); (Kid, [117; 115; 101]); (Kid, [97]); (Kp, [59])].
(* use a; use a; *)
Definition w_dup_a : list tok :=
  [(Kid, [117; 115; 101]); (Kid, [97]); (Kp, [59]); (Kid, [117; 115; 101]); (Kid, [97]); (Kp, [59])].
(* use a; *)
Definition w_dup_b : list tok :=
  [(Kid, [117; 115; 101]); (Kid, [97]); (Kp, [59])].
(* macro_rules! m { (#[derive(A)] #[derive(B)] $i:item) => { $i }; } *)
Definition w_mdm_a : list tok :=
  [(Kid, [109; 97; 99; 114; 111; 95; 114; 117; 108; 101; 115]); (Kp, [33]); (Kid, [109]); (Kp, [123]); (Kp, [40]); (Kp, [35]); (Kp, [91]); (Kid, [100; 101; 114; 105; 118; 101]); (Kp, [40]); (Kid, [65]); (Kp, [41]); (Kp, [93]); (Kp, [35]); (Kp, [91]); (Kid, [100; 101; 114; 105; 118; 101]); (Kp, [40]); (Kid, [66]); (Kp, [41]); (Kp, [93]); (Kp, [36]); (Kid, [105]); (Kp, [58]); (Kid, [105; 116; 101; 109]); (Kp, [41]); (Kp, [61]); (Kp, [62]); (Kp, [123]); (Kp, [36]); (Kid, [105]); (Kp, [125]); (Kp, [59]); (Kp, [125])].
(* macro_rules! m { (#[derive(A, B)] $i:item) => { $i }; } *)
Definition w_mdm_b : list tok :=
  [(Kid, [109; 97; 99; 114; 111; 95; 114; 117; 108; 101; 115]); (Kp, [33]); (Kid, [109]); (Kp, [123]); (Kp, [40]); (Kp, [35]); (Kp, [91]); (Kid, [100; 101; 114; 105; 118; 101]); (Kp, [40]); (Kid, [65]); (Kp, [44]); (Kid, [66]); (Kp, [41]); (Kp, [93]); (Kp, [36]); (Kid, [105]); (Kp, [58]); (Kid, [105; 116; 101; 109]); (Kp, [41]); (Kp, [61]); (Kp, [62]); (Kp, [123]); (Kp, [36]); (Kid, [105]); (Kp, [125]); (Kp, [59]); (Kp, [125])].
(* macro_rules! m { ($a:expr; use b; use a;) => { 1 }; } *)
Definition w_rom_a : list tok :=
  [(Kid, [109; 97; 99; 114; 111; 95; 114; 117; 108; 101; 115]); (Kp, [33]); (Kid, [109]); (Kp, [123]); (Kp, [40]); (Kp, [36]); (Kid, [97]); (Kp, [58]); (Kid, [101; 120; 112; 114]); (Kp, [59]); (Kid, [117; 115; 101]); (Kid, [98]); (Kp, [59]); (Kid, [117; 115; 101]); (Kid, [97]); (Kp, [59]); (Kp, [41]); (Kp, [61]); (Kp, [62]); (Kp, [123]); (Klit LInt, [49]); (Kp, [125]); (Kp, [59]); (Kp, [125])].
(* macro_rules! m { ($a:expr; use a; use b;) => { 1 }; } *)
Definition w_rom_b : list tok :=
  [(Kid, [109; 97; 99; 114; 111; 95; 114; 117; 108; 101; 115]); (Kp, [33]); (Kid, [109]); (Kp, [123]); (Kp, [40]); (Kp, [36]); (Kid, [97]); (Kp, [58]); (Kid, [101; 120; 112; 114]); (Kp, [59]); (Kid, [117; 115; 101]); (Kid, [97]); (Kp, [59]); (Kid, [117; 115; 101]); (Kid, [98]); (Kp, [59]); (Kp, [41]); (Kp, [61]); (Kp, [62]); (Kp, [123]); (Klit LInt, [49]); (Kp, [125]); (Kp, [59]); (Kp, [125])].

(* the multiset of essential atoms is not preserved by the whole pipeline: merging imports drops duplicates *)
Lemma essential_multiset_refuted_lemma : exists (o : opts) (a b : list tok),
  norm o a = norm o b /\ ~ Permutation (ess (atoms_of o a)) (ess (atoms_of o b)).
Proof.
  exists o_default, w_dup_a, w_dup_b. split; [vm_compute; reflexivity|].
  intros H. apply Permutation_length in H. vm_compute in H. discriminate.
Qed.
(* the canonical string of a class of imports is ambiguous: head atoms are joined by blanks, and a doc comment
   contains blanks.  A visibility can move into a doc comment unnoticed *)
Lemma use_head_ambiguous_refuted_lemma : exists (o : opts) (a b : list tok),
  norm o a = norm o b /\ In s_pub (atoms_of o b) /\ ~ In s_pub (atoms_of o a).
Proof.
  exists o_default, w_doc_a, w_doc_b. split; [vm_compute; reflexivity|]. split.
  - vm_compute. right. left. reflexivity.
  - vm_compute. intros H. repeat (destruct H as [H|H]; [discriminate H|]). exact H.
Qed.
(* macro matchers are NOT compared verbatim by the whole pipeline: merge_derives and reorder_runs also act inside
   them (the core pipeline tells the two definitions apart) *)
Lemma matchers_verbatim_refuted_lemma : exists (o : opts) (a b a' b' : list tok),
  (norm o a = norm o b /\ norm_core o a <> norm_core o b) /\
  (norm o a' = norm o b' /\ norm_core o a' <> norm_core o b').
Proof.
  exists o_default, w_mdm_a, w_mdm_b, w_rom_a, w_rom_b.
  split; (split; [vm_compute; reflexivity|vm_compute; discriminate]).
Qed.

(* one-element tuples: the trees of  let (a,) = b;  and  let (a) = b;  which the checker tells apart and Equiv relates,
   through the ill-formed  let <> (a,) = b;  where the group follows `>` (Props.v Equiv_tuple_comma_refuted) *)
Definition tup_a : list item :=
  [Tok s_let; Grp DParen [Tok [97]; Tok s_comma]; Tok s_eq; Tok [98]; Tok s_semi].
Definition tup_b : list item :=
  [Tok s_let; Grp DParen [Tok [97]]; Tok s_eq; Tok [98]; Tok s_semi].
Lemma tup_equiv : Equiv CTop tup_a tup_b.
Proof.
  apply Eq_pets_then with (Tok s_let :: Tok s_lt :: Tok s_gt :: tl tup_a);
    [exact (S_empty_generics CTop [Tok s_let] (tl tup_a))|].
  apply Eq_step_then with (Tok s_let :: Tok s_lt :: Tok s_gt :: tl tup_b);
    [exact (S_trailing_sep CTop [Tok s_let; Tok s_lt; Tok s_gt] DParen [Tok [97]] [Tok s_eq; Tok [98]; Tok s_semi] eq_refl)|].
  apply Eq_step. exact (S_empty_generics CTop [Tok s_let] (tl tup_b)).
Qed.
Lemma Equiv_tuple_comma_refuted_lemma : exists (o : opts) (a b : list item),
  norm_seq o None a <> norm_seq o None b /\ Equiv CTop a b.
Proof. exists o_default, tup_a, tup_b. split; [vm_compute; discriminate|exact tup_equiv]. Qed.
(* in tuple position the trailing-separator step itself does not apply: its side condition is false *)
Lemma tuple_comma_no_step_condition :
  negb (delim_eqb DParen DParen) || Nat.leb 2 (tuple_commas ([Tok [97]] ++ [Tok s_comma])) || arg_pos (rev [Tok s_let]) = false
  /\ trim_group [Tok s_let] (Grp DParen [Tok [97]; Tok s_comma]) = Grp DParen [Tok [97]; Tok s_comma]
  /\ trim_group [Tok [102]] (Grp DParen [Tok [97]; Tok s_comma]) = Grp DParen [Tok [97]].
Proof. repeat split; reflexivity. Qed.
