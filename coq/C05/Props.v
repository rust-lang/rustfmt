(* C05/Props.v — C05: "If the input cannot be processed (syntax error in the root file or in any out-of-line module
   it reaches, unresolvable module, malformed or version-mismatched configuration, missing path), rustfmt writes
   nothing for that crate root: every file it reaches keeps its exact bytes, a diagnostic is printed and the exit
   status is 1. Other roots named on the same command line are still formatted, and a file is only ever replaced
   by its complete formatted text."
   Scope: the order of events in format_input_inner / format_project / main.rs's loop, for every module tree
   (rose tree, no bound), every configuration and every per-file outcome.  File-system operations happen only
   inside emit_formatted_file, i.e. at Emitted / EmitIoErr events (C06 only_files_write, files_touch_iff: the
   operation is one write of the complete formatted text). *)
From V Require Import Base.Text C20.Model C06.Model C06.Lemmas C05.Model C05.Lemmas.
Local Open Scope N_scope.

(* clause 1: version mismatch, bad ignore pattern, a root that does not parse, or a reached child that is
   missing / ambiguous / unparsable: no file of that root is formatted, none is handed to the emitter *)
Theorem no_emit_on_early_failure : forall (c : cfg) (stdin : bool) (t : mtree),
  c_version_ok c = false \/ c_ignore_ok c = false \/ root_bad c stdin t ->
  no_emitted (fst (run_root c stdin t)) /\ no_formatted (fst (run_root c stdin t)).
Proof. exact no_emit_on_early_failure_lemma. Qed.
Print Assumptions no_emit_on_early_failure.

(* clause 1, exit status: such a root sets has_operational_errors or has_parsing_errors, both exit-code
   expressions give 1, and the trace contains a failure event (the diagnostic) — unless formatting is disabled
   or the root is ignored under skip_children *)
Theorem exit_one_on_failure : forall (c : cfg) (stdin : bool) (t : mtree) (check : bool),
  c_version_ok c = false \/
  (c_disable_all c = false /\
   (c_ignore_ok c = false \/ (not_looked_at c t = false /\ root_bad c stdin t))) ->
  let f := snd (run_root c stdin t) in
  (f_operational f = true \/ f_parsing f = true) /\ exit_file f check = 1 /\ exit_stdin f = 1 /\
  existsb is_failure (fst (run_root c stdin t)) = true.
Proof. exact exit_one_on_failure_lemma. Qed.
Print Assumptions exit_one_on_failure.

(* the exception: disable_all_formatting = true returns before anything is parsed: a syntax error gives no
   diagnostic and no flag (exit 0) *)
Theorem exit_one_on_failure_disabled_refuted :
  exists c t, n_outcome (t_info t) = PRecoverable /\ run_root c false t = ([], flags_zero).
Proof. exact exit_one_on_failure_disabled_refuted_lemma. Qed.
Print Assumptions exit_one_on_failure_disabled_refuted.

(* REPAIRED (ParserBuilder::build now runs the parser creation under catch_unwind): BEFORE the repair, exit status
   1 and "other roots are still formatted" failed for a fatal lexer error (unterminated string, raw string or
   block comment) in a ROOT file or on standard input: rustc's FatalError unwound through main, the process ended
   with status 101 and the roots named after it were not processed.  Stated about the pre-repair definitions *)
Theorem root_fatal_lexer_error_exit101_refuted :
  exists (scfg : cfg) (r1 r2 : root),
    n_outcome (t_info (r_tree r1)) = PLexFatal /\
    In (Emitted 7) (fst (run_one scfg r2)) /\
    run_main_pre (Some scfg) false [r1; r2] = ([[ParseRootErr]], 101) /\
    run_main_pre (Some scfg) false [r2; r1] = ([[Parsed 7; Formatted 7; Emitted 7]; [ParseRootErr]], 101) /\
    run_stdin_pre scfg (r_tree r1) = ([ParseRootErr], 101).
Proof. exact root_lex_fatal_refuted_lemma. Qed.
Print Assumptions root_fatal_lexer_error_exit101_refuted.

(* the repaired code: a fatal lexer error in the root is a parse error (diagnostic, parsing flag, exit 1, on
   standard input too) and the other roots are formatted; in a child module it is a module resolution error *)
Theorem root_fatal_lexer_error_repaired :
  (forall c stdin t, c_version_ok c = true -> c_disable_all c = false -> c_ignore_ok c = true ->
     (c_skip_children c && n_ignored (t_info t)) = false -> n_outcome (t_info t) = PLexFatal ->
     run_root c stdin t = ([ParseRootErr], parsing_flag) /\ snd (run_stdin c t) = 1) /\
  run_main (Some cfg_ok) false [MkRoot true false UseSession (Node (lex_info 3) []);
                                MkRoot true false (LocalOk cfg_ok) (Node (clean_info 7) [])] =
    ([[ParseRootErr]; [Parsed 7; Formatted 7; Emitted 7]], 1) /\
  run_main (Some cfg_ok) false [MkRoot true false UseSession (Node (clean_info 5) [Node (lex_info 3) []]);
                                MkRoot true false (LocalOk cfg_ok) (Node (clean_info 7) [])] =
    ([[Parsed 5; ResolveErr]; [Parsed 7; Formatted 7; Emitted 7]], 1).
Proof. exact root_lex_fatal_repaired_lemma. Qed.
Print Assumptions root_fatal_lexer_error_repaired.

(* clause 1, ordering: in every trace of a root, no parse / resolve event follows an emission: every file is
   parsed and every module resolved before the first file is formatted or written *)
Theorem emit_after_all_resolve : forall (c : cfg) (stdin : bool) (t : mtree) pre p post,
  fst (run_root c stdin t) = pre ++ Emitted p :: post ->
  Forall (fun e => is_parse_ev e = false) post.
Proof. exact emit_after_all_resolve_lemma. Qed.
Print Assumptions emit_after_all_resolve.

(* a panic of the rustc parser in the root file: parsing-error flag, exit 1, nothing else happens *)
Theorem panic_contained : forall (c : cfg) (stdin : bool) (t : mtree),
  c_version_ok c = true -> c_disable_all c = false -> c_ignore_ok c = true ->
  (c_skip_children c && n_ignored (t_info t)) = false ->
  n_outcome (t_info t) = PPanic ->
  run_root c stdin t = ([ParsePanic], parsing_flag).
Proof. exact panic_root_lemma. Qed.
Print Assumptions panic_contained.

(* a panic in an out-of-line module: reported as a module resolution error, i.e. the OPERATIONAL flag (not the
   parsing flag), exit 1, nothing emitted *)
Theorem panic_contained_child : forall (c : cfg) (t k : mtree) (check : bool),
  c_version_ok c = true -> c_disable_all c = false -> c_ignore_ok c = true ->
  not_looked_at c t = false -> c_skip_children c = false ->
  n_outcome (t_info t) = POk -> In k (t_kids t) -> n_decl_skip (t_info k) = false -> n_outcome (t_info k) = PPanic ->
  snd (run_root c false t) = operational_flag /\ exit_file (snd (run_root c false t)) check = 1 /\
  no_emitted (fst (run_root c false t)).
Proof. exact panic_child_lemma. Qed.
Print Assumptions panic_contained_child.

(* clause 2: as long as no root's local configuration fails to load, the events and flags of each root are
   those of that root alone (run_one does not mention the other roots) *)
Theorem roots_independent_partial : forall (scfg : cfg) (rs : list root),
  existsb aborts rs = false ->
  fst (run_roots scfg rs) = map (run_one scfg) rs /\ snd (run_roots scfg rs) = false.
Proof. exact roots_independent_lemma. Qed.
Print Assumptions roots_independent_partial.

(* in general only a prefix of the roots is processed, each as if alone *)
Theorem roots_prefix : forall (scfg : cfg) (rs : list root),
  exists k, fst (run_roots scfg rs) = map (run_one scfg) (firstn k rs) /\
            (existsb aborts rs = false -> k = length rs).
Proof. exact roots_prefix_lemma. Qed.
Print Assumptions roots_prefix.

(* clause 2 REFUTED: a root whose directory holds a malformed rustfmt.toml ends the loop (`?` in main.rs:360):
   roots named after it are not formatted, roots named before it are (confirmed on the binary) *)
Theorem other_roots_still_formatted_refuted :
  exists (scfg : cfg) (r1 r2 : root),
    In (Emitted 7) (fst (run_one scfg r2)) /\
    run_main (Some scfg) false [r1; r2] = ([[ConfigErr]], 1) /\
    run_main (Some scfg) false [r2; r1] = ([[Parsed 7; Formatted 7; Emitted 7]; [ConfigErr]], 1).
Proof. exact other_roots_refuted_lemma. Qed.
Print Assumptions other_roots_still_formatted_refuted.

(* exit status of the invocation: 1 as soon as one root fails *)
Theorem multi_exit_one : forall (scfg : cfg) (check : bool) (rs : list root) (r : root),
  In r rs ->
  (f_operational (snd (run_one scfg r)) = true \/ f_parsing (snd (run_one scfg r)) = true \/ aborts r = true) ->
  snd (run_main (Some scfg) check rs) = 1.
Proof. exact multi_exit_one_lemma. Qed.
Print Assumptions multi_exit_one.

(* the trace monitor accepts every trace of the model ... *)
Theorem accepts_spec : forall (c : cfg) (stdin : bool) (t : mtree), accepts (fst (run_root c stdin t)) = true.
Proof. exact accepts_spec_lemma. Qed.
Print Assumptions accepts_spec.

(* ... and an accepted trace with a failure event contains no emission *)
Theorem accepts_sound : forall tr : list Ev,
  accepts tr = true -> existsb is_failure tr = true -> existsb is_emitted tr = false.
Proof. exact accepts_sound_lemma. Qed.
Print Assumptions accepts_sound.
