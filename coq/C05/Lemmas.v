(* C05/Lemmas.v — proofs for C05; the theorems of Props.v are the lemmas named ..._lemma *)
From V Require Import Base.Text C20.Model C06.Model C06.Lemmas C05.Model.
Local Open Scope N_scope.

(* C05's "out-of-line module it reaches" whose lookup or parse fails.  Part of the statements of Props.v, and
   stated without visit: reach_bad_none relates the two *)
Inductive reach_bad : mtree -> Prop :=
| rb_here i kids : n_decl_skip i = false -> n_outcome i <> POk -> reach_bad (Node i kids)
| rb_below i kids k : n_decl_skip i = false -> n_outcome i = POk -> n_inner_skip i = false ->
    In k kids -> reach_bad k -> reach_bad (Node i kids).

(* the `recursive` that format_project passes to ModResolver::new (formatting.rs:139) *)
Definition recursive (c : cfg) (stdin : bool) : bool := negb stdin && negb (c_skip_children c).

(* C05's "the input cannot be processed", apart from the configuration and path cases *)
Definition root_bad (c : cfg) (stdin : bool) (t : mtree) : Prop :=
  n_outcome (t_info t) <> POk \/
  (recursive c stdin = true /\ exists k, In k (t_kids t) /\ reach_bad k).

Definition not_looked_at (c : cfg) (t : mtree) : bool :=
  c_disable_all c || (c_skip_children c && n_ignored (t_info t)).

Definition no_emitted (tr : list Ev) : Prop := forall p, ~ In (Emitted p) tr.
Definition no_formatted (tr : list Ev) : Prop := forall p, ~ In (Formatted p) tr.

(* the loop on the one-element list: "as if alone" taken literally; run_one_eq is the closed form *)
Definition run_one (scfg : cfg) (r : root) : list Ev * flags :=
  match fst (run_roots scfg [r]) with x :: _ => x | [] => ([], flags_zero) end.

(* the `?` on load_config inside the loop of main.rs *)
Definition aborts (r : root) : bool :=
  negb (negb (r_exists r) || r_is_dir r) && match r_load r with LocalErr => true | _ => false end.

Definition clean_info (p : path) : ninfo := MkInfo p POk false false false (MkFres flags_zero false false).
Definition lex_info (p : path) : ninfo := MkInfo p PLexFatal false false false (MkFres flags_zero false false).
Definition cfg_ok : cfg := MkCfg true false true false.

Lemma mtree_ind' (P : mtree -> Prop) :
  (forall i kids, Forall P kids -> P (Node i kids)) -> forall t, P t.
Proof.
  intros H. fix IH 1. intros [i kids]. apply H.
  induction kids as [|k ks IHk]; constructor; [apply IH|exact IHk].
Qed.

Lemma visit_unfold i kids :
  visit (Node i kids) =
  if n_decl_skip i then ([], Some [])
  else match n_outcome i with
       | POk => if n_inner_skip i then ([Parsed (n_path i)], Some [])
                else (Parsed (n_path i) :: fst (visit_kids kids), option_map (cons i) (snd (visit_kids kids)))
       | _ => ([ResolveErr], None)
       end.
Proof.
  (* F is the copy of visit_kids nested inside visit *)
  cbn [visit]. match goal with |- context [?F kids] => assert (H : forall ks, F ks = visit_kids ks) end.
  { induction ks as [|k ks IH]; [reflexivity|]. cbn [visit_kids]. rewrite <- IH. reflexivity. }
  rewrite H. reflexivity.
Qed.

Lemma visit_kids_cons k ks :
  visit_kids (k :: ks) =
  match snd (visit k) with
  | None => (fst (visit k), None)
  | Some l1 => (fst (visit k) ++ fst (visit_kids ks), option_map (app l1) (snd (visit_kids ks)))
  end.
Proof. cbn [visit_kids]. destruct (visit k) as [e1 [l1|]]; reflexivity. Qed.

(* the rv of format_project: ModResolver::visit_crate *)
Definition resolve_phase (c : cfg) (stdin : bool) (t : mtree) : list Ev * option (list ninfo) :=
  if recursive c stdin then visit_kids (t_kids t) else ([], Some []).

Definition resolve_ev (e : Ev) : bool := match e with Parsed _ | ResolveErr => true | _ => false end.

Definition resolve_shape (r : list Ev * option (list ninfo)) : Prop :=
  exists ps, fst r = map Parsed ps ++ match snd r with Some _ => [] | None => [ResolveErr] end.

Lemma visit_kids_shape ks : Forall (fun k => resolve_shape (visit k)) ks -> resolve_shape (visit_kids ks).
Proof.
  induction 1 as [|k ks (ps1 & Hk) _ (ps2 & IH)]; [exists []; reflexivity|].
  rewrite visit_kids_cons. destruct (snd (visit k)); [|exists ps1; exact Hk].
  exists (ps1 ++ ps2). cbn [fst snd]. rewrite Hk, IH, map_app, app_nil_r, app_assoc.
  destruct (snd (visit_kids ks)); reflexivity.
Qed.

Lemma visit_shape t : resolve_shape (visit t).
Proof.
  induction t as [i kids IH] using mtree_ind'. rewrite visit_unfold.
  destruct (n_decl_skip i); [exists []; reflexivity|].
  destruct (n_outcome i); try (exists []; reflexivity).
  destruct (n_inner_skip i); [exists [n_path i]; reflexivity|].
  destruct (visit_kids_shape kids IH) as (ps & H). exists (n_path i :: ps). cbn [fst snd]. rewrite H.
  destruct (snd (visit_kids kids)); reflexivity.
Qed.

Lemma resolve_phase_shape c stdin t : resolve_shape (resolve_phase c stdin t).
Proof.
  unfold resolve_phase. destruct (recursive c stdin); [|exists []; reflexivity].
  apply visit_kids_shape, Forall_forall. intros k _. apply visit_shape.
Qed.

Lemma shape_events r : resolve_shape r -> Forall (fun e => resolve_ev e = true) (fst r).
Proof.
  intros (ps & ->). apply Forall_app. split; [|destruct (snd r); repeat constructor].
  apply Forall_map, Forall_forall. reflexivity.
Qed.

Lemma shape_failure r : resolve_shape r -> snd r = None -> existsb is_failure (fst r) = true.
Proof. intros (ps & ->) ->. rewrite existsb_app. apply orb_true_r. Qed.

Lemma resolve_not_formatted e p : resolve_ev e = true -> e <> Formatted p /\ e <> Emitted p.
Proof. intros H. split; intros ->; discriminate H. Qed.

Lemma no_fe_resolve l : Forall (fun e => resolve_ev e = true) l -> no_emitted l /\ no_formatted l.
Proof.
  intros H. split; intros p Hin; rewrite Forall_forall in H; apply H in Hin; discriminate Hin.
Qed.

Lemma visit_kids_none ks : Exists (fun k => snd (visit k) = None) ks -> snd (visit_kids ks) = None.
Proof.
  induction 1 as [k ks Hk|k ks _ IH]; rewrite visit_kids_cons.
  - rewrite Hk. reflexivity.
  - destruct (snd (visit k)); [rewrite IH|]; reflexivity.
Qed.

Lemma reach_bad_none t : reach_bad t -> snd (visit t) = None.
Proof.
  intros H. induction H as [i kids Hd Ho|i kids k Hd Ho Hs Hin Hk IH]; rewrite visit_unfold, Hd.
  - destruct (n_outcome i); try reflexivity. contradiction.
  - rewrite Ho, Hs. cbn [snd]. rewrite (visit_kids_none kids); [reflexivity|]. apply Exists_exists. exists k. auto.
Qed.

Lemma root_bad_resolve_none c stdin t :
  n_outcome (t_info t) = POk -> root_bad c stdin t -> snd (resolve_phase c stdin t) = None.
Proof.
  intros Ho [Hbad|(Hrec & k & Hin & Hk)]; [contradiction|].
  unfold resolve_phase. rewrite Hrec. apply visit_kids_none, Exists_exists. exists k. split; [exact Hin|].
  apply reach_bad_none. exact Hk.
Qed.

Definition reaches_parse (c : cfg) (t : mtree) : Prop :=
  c_version_ok c = true /\ c_disable_all c = false /\ c_ignore_ok c = true /\
  c_skip_children c && n_ignored (t_info t) = false.

Definition root_ev (o : outcome) : Ev := match o with PFatal | PPanic => ParsePanic | _ => ParseRootErr end.

(* in RFormat ps (the files filtered out) and kept (those formatted) are arbitrary: nothing below depends on
   file_map or should_skip *)
Inductive inner_run (c : cfg) (stdin : bool) (t : mtree) : list Ev * result -> Prop :=
| RVersion : c_version_ok c = false -> inner_run c stdin t ([VersionMismatch], RErr)
| RDisabled : c_version_ok c = true -> c_disable_all c = true -> inner_run c stdin t ([], ROk flags_zero)
| RConfig : c_version_ok c = true -> c_disable_all c = false -> c_ignore_ok c = false ->
    inner_run c stdin t ([ConfigErr], RErr)
| RIgnored : c_version_ok c = true -> c_disable_all c = false -> c_ignore_ok c = true ->
    c_skip_children c && n_ignored (t_info t) = true -> inner_run c stdin t ([], ROk flags_zero)
| RParse : reaches_parse c t -> n_outcome (t_info t) <> POk ->
    inner_run c stdin t ([root_ev (n_outcome (t_info t))], ROk parsing_flag)
| RResolve : reaches_parse c t -> n_outcome (t_info t) = POk -> snd (resolve_phase c stdin t) = None ->
    inner_run c stdin t (Parsed (n_path (t_info t)) :: fst (resolve_phase c stdin t), RErr)
| RFormat children ps kept :
    reaches_parse c t -> n_outcome (t_info t) = POk -> snd (resolve_phase c stdin t) = Some children ->
    inner_run c stdin t
      (Parsed (n_path (t_info t)) :: fst (resolve_phase c stdin t) ++
         map (fun i => Filtered (n_path i)) ps ++ fst (fmt_loop stdin kept flags_zero),
       match snd (fmt_loop stdin kept flags_zero) with Some f => ROk f | None => RErr end).

Lemma format_input_cases c stdin t : inner_run c stdin t (format_input_inner c stdin t).
Proof.
  unfold format_input_inner, format_project.
  destruct (c_version_ok c) eqn:Hv; [|apply RVersion; exact Hv].
  destruct (c_disable_all c) eqn:Hd; [apply RDisabled; assumption|].
  destruct (c_ignore_ok c) eqn:Hi; [|apply RConfig; assumption].
  destruct (c_skip_children c && n_ignored (t_info t)) eqn:Hs; [apply RIgnored; assumption|].
  assert (L : reaches_parse c t) by (repeat split; assumption).
  cbv zeta. fold (recursive c stdin). fold (resolve_phase c stdin t).
  (* the remaining constructors are stated before the case split, so that it reaches the outcome in their types *)
  generalize (RParse c stdin t L), (RResolve c stdin t L), (fun ch ps kept => RFormat c stdin t ch ps kept L).
  destruct (n_outcome (t_info t)); intros HP HR HF; try (apply HP; discriminate).
  destruct (snd (resolve_phase c stdin t)) as [ch|]; [apply (HF ch)|apply HR]; reflexivity.
Qed.

Lemma early_not_format c stdin t children :
  c_version_ok c = false \/ c_ignore_ok c = false \/ root_bad c stdin t ->
  reaches_parse c t -> n_outcome (t_info t) = POk -> snd (resolve_phase c stdin t) <> Some children.
Proof.
  intros H (Hv & _ & Hi & _) Ho. destruct H as [H|[H|H]]; try congruence.
  rewrite (root_bad_resolve_none c stdin t Ho H). discriminate.
Qed.

Lemma early_failure_events c stdin t :
  c_version_ok c = false \/ c_ignore_ok c = false \/ root_bad c stdin t ->
  Forall (fun e => is_failure e || resolve_ev e = true) (fst (run_root c stdin t)).
Proof.
  intros H. unfold run_root.
  destruct (format_input_cases c stdin t) as [ | | | | _ _ | _ _ _ | ch ps kept L Ho Hr]; cbn [fst].
  1-4: repeat constructor.
  - (* RParse *) constructor; [destruct (n_outcome (t_info t)); reflexivity|constructor].
  - (* RResolve *) constructor; [reflexivity|]. eapply Forall_impl; [|apply shape_events, resolve_phase_shape].
    intros e ->. apply orb_true_r.
  - (* RFormat *) contradiction (early_not_format c stdin t ch H L Ho Hr).
Qed.

Lemma no_emit_on_early_failure_lemma c stdin t :
  c_version_ok c = false \/ c_ignore_ok c = false \/ root_bad c stdin t ->
  no_emitted (fst (run_root c stdin t)) /\ no_formatted (fst (run_root c stdin t)).
Proof.
  intros H. apply early_failure_events in H. rewrite Forall_forall in H.
  split; intros p Hin; apply H in Hin; discriminate Hin.
Qed.

Lemma failing_root c stdin t :
  c_version_ok c = false \/
  (c_disable_all c = false /\
   (c_ignore_ok c = false \/ (not_looked_at c t = false /\ root_bad c stdin t))) ->
  (snd (run_root c stdin t) = operational_flag \/
   (n_outcome (t_info t) <> POk /\ snd (run_root c stdin t) = parsing_flag)) /\
  existsb is_failure (fst (run_root c stdin t)) = true.
Proof.
  intros H. unfold run_root.
  destruct (format_input_cases c stdin t) as [Hv|Hv Hd|Hv Hd Hi|Hv Hd Hi Hs|L Ho|L Ho Hr|ch ps kept L Ho Hr];
    cbn [fst snd].
  - (* RVersion *) auto.
  - (* RDisabled *) destruct H as [H|[H _]]; congruence.
  - (* RConfig *) auto.
  - (* RIgnored *) unfold not_looked_at in H. rewrite Hs, orb_true_r in H.
    destruct H as [H|(_ & [H|[H _]])]; congruence.
  - (* RParse *) split; [auto|]. destruct (n_outcome (t_info t)); reflexivity.
  - (* RResolve *) split; [auto|]. apply (shape_failure _ (resolve_phase_shape c stdin t) Hr).
  - (* RFormat *) exfalso. refine (early_not_format c stdin t ch _ L Ho Hr).
    destruct H as [H|(_ & [H|[_ H]])]; auto.
Qed.

Lemma exit_one_on_failure_lemma c stdin t check :
  c_version_ok c = false \/
  (c_disable_all c = false /\
   (c_ignore_ok c = false \/ (not_looked_at c t = false /\ root_bad c stdin t))) ->
  let f := snd (run_root c stdin t) in
  (f_operational f = true \/ f_parsing f = true) /\ exit_file f check = 1 /\ exit_stdin f = 1 /\
  existsb is_failure (fst (run_root c stdin t)) = true.
Proof.
  intros H. cbv zeta. destruct (failing_root c stdin t H) as ([E|[_ E]] & G); rewrite E; repeat split; auto.
Qed.

(* failing_root needs its hypothesis c_disable_all c = false *)
Lemma exit_one_on_failure_disabled_refuted_lemma :
  exists c t, n_outcome (t_info t) = PRecoverable /\ run_root c false t = ([], flags_zero).
Proof.
  exists (MkCfg true true true false),
         (Node (MkInfo 1 PRecoverable false false false (MkFres flags_zero false false)) []).
  split; reflexivity.
Qed.

Lemma root_parse_error c stdin t :
  c_version_ok c = true -> c_disable_all c = false -> c_ignore_ok c = true ->
  (c_skip_children c && n_ignored (t_info t)) = false -> n_outcome (t_info t) <> POk ->
  run_root c stdin t = ([root_ev (n_outcome (t_info t))], parsing_flag).
Proof.
  intros Hv Hd Hi Hs Ho. unfold run_root. destruct (format_input_cases c stdin t); cbn [fst snd]; congruence.
Qed.

Lemma panic_root_lemma c stdin t :
  c_version_ok c = true -> c_disable_all c = false -> c_ignore_ok c = true ->
  (c_skip_children c && n_ignored (t_info t)) = false ->
  n_outcome (t_info t) = PPanic ->
  run_root c stdin t = ([ParsePanic], parsing_flag).
Proof. intros Hv Hd Hi Hs Ho. rewrite root_parse_error, Ho by (assumption || congruence). reflexivity. Qed.

Lemma panic_child_lemma c t k check :
  c_version_ok c = true -> c_disable_all c = false -> c_ignore_ok c = true ->
  not_looked_at c t = false -> c_skip_children c = false ->
  n_outcome (t_info t) = POk -> In k (t_kids t) -> n_decl_skip (t_info k) = false -> n_outcome (t_info k) = PPanic ->
  snd (run_root c false t) = operational_flag /\ exit_file (snd (run_root c false t)) check = 1 /\
  no_emitted (fst (run_root c false t)).
Proof.
  intros Hv Hd Hi Hn Hs Ho Hin Hk1 Hk2.
  assert (Hbad : root_bad c false t).
  { right. split; [unfold recursive; rewrite Hs; reflexivity|]. exists k. split; [exact Hin|].
    destruct k as [ik kk]. apply rb_here; [exact Hk1|]. cbn in Hk2. rewrite Hk2. discriminate. }
  split; [|split].
  - destruct (failing_root c false t) as ([E|[Hno _]] & _); [auto|exact E|contradiction].
  - apply exit_one_on_failure_lemma. auto.
  - apply no_emit_on_early_failure_lemma. auto.
Qed.

Lemma run_one_eq scfg r :
  run_one scfg r =
  if negb (r_exists r) || r_is_dir r then ([BadPath], operational_flag)
  else match r_load r with
       | LocalErr => ([ConfigErr], flags_zero)
       | UseSession => run_root scfg false (r_tree r)
       | LocalOk c => run_root c false (r_tree r)
       end.
Proof.
  unfold run_one. cbn [run_roots]. destruct (negb (r_exists r) || r_is_dir r); [reflexivity|].
  destruct (r_load r); reflexivity.
Qed.

Lemma run_roots_cons scfg r rs :
  run_roots scfg (r :: rs) =
  if aborts r then ([run_one scfg r], true)
  else (run_one scfg r :: fst (run_roots scfg rs), snd (run_roots scfg rs)).
Proof.
  rewrite run_one_eq. unfold aborts. cbn [run_roots].
  destruct (negb (r_exists r) || r_is_dir r); [reflexivity|]. destruct (r_load r); reflexivity.
Qed.

Lemma run_roots_spec scfg rs :
  exists k, fst (run_roots scfg rs) = map (run_one scfg) (firstn k rs) /\
            (existsb aborts rs = false -> k = length rs) /\
            snd (run_roots scfg rs) = existsb aborts rs.
Proof.
  induction rs as [|r rs (k & IH1 & IH2 & IH3)]; [exists 0%nat; auto|].
  rewrite run_roots_cons. cbn [existsb]. destruct (aborts r).
  - exists 1%nat. repeat split. discriminate.
  - exists (S k). cbn [firstn map fst snd length orb]. rewrite IH1. auto.
Qed.

Lemma roots_prefix_lemma scfg rs :
  exists k, fst (run_roots scfg rs) = map (run_one scfg) (firstn k rs) /\
            (existsb aborts rs = false -> k = length rs).
Proof. destruct (run_roots_spec scfg rs) as (k & H1 & H2 & _). exists k. auto. Qed.

Lemma roots_independent_lemma scfg rs :
  existsb aborts rs = false ->
  fst (run_roots scfg rs) = map (run_one scfg) rs /\ snd (run_roots scfg rs) = false.
Proof.
  intros H. destruct (run_roots_spec scfg rs) as (k & H1 & H2 & H3).
  rewrite H1, H3, (H2 H), firstn_all. auto.
Qed.

Lemma multi_exit_one_lemma scfg check rs r :
  In r rs -> (f_operational (snd (run_one scfg r)) = true \/ f_parsing (snd (run_one scfg r)) = true \/ aborts r = true) ->
  snd (run_main (Some scfg) check rs) = 1.
Proof.
  intros Hin H. unfold run_main. cbn [snd].
  destruct (existsb aborts rs) eqn:Ea.
  - destruct (run_roots_spec scfg rs) as (_ & _ & _ & ->). rewrite Ea. reflexivity.
  - destruct (roots_independent_lemma scfg rs Ea) as [-> ->].
    rewrite map_map, exit_file_bit, exit_bit_sum. apply b2n_one, existsb_exists.
    exists r. split; [exact Hin|]. apply error_exit_bit. destruct H as [H|[H|H]]; auto.
    exfalso. assert (existsb aborts rs = true) by (apply existsb_exists; exists r; auto). congruence.
Qed.

(* C05's "other roots are still formatted" fails: the local configuration of r1 does not load *)
Lemma other_roots_refuted_lemma :
  exists (scfg : cfg) (r1 r2 : root),
    In (Emitted 7) (fst (run_one scfg r2)) /\
    run_main (Some scfg) false [r1; r2] = ([[ConfigErr]], 1) /\
    run_main (Some scfg) false [r2; r1] = ([[Parsed 7; Formatted 7; Emitted 7]; [ConfigErr]], 1).
Proof.
  exists cfg_ok, (MkRoot true false LocalErr (Node (clean_info 3) [])),
         (MkRoot true false (LocalOk cfg_ok) (Node (clean_info 7) [])).
  split; [vm_compute; auto 10|]. split; vm_compute; reflexivity.
Qed.

(* about rustfmt before the repair of ParserBuilder::build: the ..._pre definitions of Model.v *)
Lemma root_lex_fatal_refuted_lemma :
  exists (scfg : cfg) (r1 r2 : root),
    n_outcome (t_info (r_tree r1)) = PLexFatal /\
    In (Emitted 7) (fst (run_one scfg r2)) /\
    run_main_pre (Some scfg) false [r1; r2] = ([[ParseRootErr]], 101) /\
    run_main_pre (Some scfg) false [r2; r1] = ([[Parsed 7; Formatted 7; Emitted 7]; [ParseRootErr]], 101) /\
    run_stdin_pre scfg (r_tree r1) = ([ParseRootErr], 101).
Proof.
  exists cfg_ok, (MkRoot true false UseSession (Node (lex_info 3) [])),
         (MkRoot true false (LocalOk cfg_ok) (Node (clean_info 7) [])).
  split; [reflexivity|]. split; [vm_compute; auto 10|]. repeat split; vm_compute; reflexivity.
Qed.

(* the second conjunct is on the inputs of root_lex_fatal_refuted_lemma; the third has the lexer error in a child
   module, where it was a module resolution error before the repair too *)
Lemma root_lex_fatal_repaired_lemma :
  (forall c stdin t, c_version_ok c = true -> c_disable_all c = false -> c_ignore_ok c = true ->
     (c_skip_children c && n_ignored (t_info t)) = false -> n_outcome (t_info t) = PLexFatal ->
     run_root c stdin t = ([ParseRootErr], parsing_flag) /\ snd (run_stdin c t) = 1) /\
  run_main (Some cfg_ok) false [MkRoot true false UseSession (Node (lex_info 3) []);
                                MkRoot true false (LocalOk cfg_ok) (Node (clean_info 7) [])] =
    ([[ParseRootErr]; [Parsed 7; Formatted 7; Emitted 7]], 1) /\
  run_main (Some cfg_ok) false [MkRoot true false UseSession (Node (clean_info 5) [Node (lex_info 3) []]);
                                MkRoot true false (LocalOk cfg_ok) (Node (clean_info 7) [])] =
    ([[Parsed 5; ResolveErr]; [Parsed 7; Formatted 7; Emitted 7]], 1).
Proof.
  split; [|split; vm_compute; reflexivity].
  intros c stdin t Hv Hd Hi Hs Ho. unfold run_stdin.
  rewrite !root_parse_error, Ho by (assumption || congruence). split; reflexivity.
Qed.

Lemma sbad_absorbing tr : fold_left mstep tr SBad = SBad.
Proof. induction tr as [|e tr IH]; [reflexivity|]. cbn [fold_left]. destruct e; exact IH. Qed.

Lemma s5_final tr : mfinal (fold_left mstep tr S5) = true -> tr = [].
Proof.
  destruct tr as [|e tr]; [reflexivity|]. cbn [fold_left].
  replace (mstep S5 e) with SBad by (destruct e; reflexivity). rewrite sbad_absorbing. discriminate.
Qed.

(* the invariant of monitor_inv: a failure event is accepted only in S0 or S1, and these are entered only from S0
   or S1 and not by an emission *)
Definition can_fail (s : mstate) : bool := match s with S0 | S1 => true | _ => false end.

Lemma failure_step s e : is_failure e = true -> (can_fail s = true /\ mstep s e = S5) \/ mstep s e = SBad.
Proof. destruct e; try discriminate; destruct s; auto. Qed.

Lemma can_fail_step s e : can_fail (mstep s e) = true -> can_fail s = true /\ is_emitted e = false.
Proof. destruct s, e; cbn; try discriminate; auto; destruct (_ =? _); discriminate. Qed.

Lemma monitor_inv tr : forall s, mfinal (fold_left mstep tr s) = true ->
  existsb is_failure tr = true -> can_fail s = true /\ existsb is_emitted tr = false.
Proof.
  induction tr as [|e tr IH]; intros s Hfin Hf; [discriminate|].
  cbn [fold_left] in Hfin. cbn [existsb] in Hf |- *.
  destruct (is_failure e) eqn:Efe.
  - destruct (failure_step s e Efe) as [[Hc Hs]|Hs]; rewrite Hs in Hfin.
    + apply s5_final in Hfin. subst. split; [exact Hc|]. destruct e; try discriminate; reflexivity.
    + rewrite sbad_absorbing in Hfin. discriminate.
  - destruct (IH _ Hfin Hf) as [Hc He]. rewrite He, orb_false_r. apply can_fail_step. exact Hc.
Qed.

Lemma accepts_sound_lemma tr :
  accepts tr = true -> existsb is_failure tr = true -> existsb is_emitted tr = false.
Proof. intros Ha Hf. apply (monitor_inv tr S0 Ha Hf). Qed.

Definition can_format (s : mstate) : bool := match s with S1 | S2 | S4 => true | _ => false end.

Lemma mstep_loop {A} (g : A -> Ev) s l : (forall x, mstep s (g x) = s) -> fold_left mstep (map g l) s = s.
Proof. intros H. induction l as [|x l IH]; [reflexivity|]. cbn [map fold_left]. rewrite H. exact IH. Qed.

Lemma shape_monitor r : resolve_shape r ->
  fold_left mstep (fst r) S1 = match snd r with Some _ => S1 | None => S5 end.
Proof. intros (ps & ->). rewrite fold_left_app, mstep_loop by reflexivity. destruct (snd r); reflexivity. Qed.

Lemma fmt_loop_monitor stdin files : forall acc s, can_format s = true ->
  mfinal (fold_left mstep (fst (fmt_loop stdin files acc)) s) = true.
Proof.
  assert (Hfin : forall s, can_format s = true -> mfinal s = true) by (intros s; destruct s; easy).
  induction files as [|i rest IH]; intros acc s Hs; cbn [fmt_loop]; [apply Hfin, Hs|].
  destruct (stdin && n_inner_skip i); [apply Hfin, Hs|].
  assert (H3 : mstep s (Formatted (n_path i)) = S3 (n_path i)) by (destruct s; easy).
  destruct (fr_io_err (n_res i)); cbn [fst fold_left]; rewrite H3; cbn [mstep]; rewrite N.eqb_refl;
    [reflexivity|apply IH; reflexivity].
Qed.

Lemma accepts_spec_lemma c stdin t : accepts (fst (run_root c stdin t)) = true.
Proof.
  unfold accepts, run_root.
  destruct (format_input_cases c stdin t) as [ | | | | _ _ | _ _ Hr | ch ps kept _ _ Hr]; cbn [fst].
  1-4: reflexivity.
  - (* RParse *) destruct (n_outcome (t_info t)); reflexivity.
  - (* RResolve *) cbn [fold_left mstep]. rewrite (shape_monitor _ (resolve_phase_shape c stdin t)), Hr. reflexivity.
  - (* RFormat *) cbn [fold_left mstep].
    rewrite !fold_left_app, (shape_monitor _ (resolve_phase_shape c stdin t)), Hr.
    (* with no Filtered event the monitor is still in S1; the first leads to S2, where the others leave it *)
    apply fmt_loop_monitor. destruct ps as [|i ps]; [reflexivity|].
    cbn [map fold_left mstep]. rewrite mstep_loop; reflexivity.
Qed.

Definition past_resolve (s : mstate) : bool := match s with S3 _ | S4 | S5 | SBad => true | _ => false end.
Definition format_ev (e : Ev) : bool := match e with Formatted _ | Emitted _ | EmitIoErr _ => true | _ => false end.

Lemma format_ev_step s e : format_ev e = true -> past_resolve (mstep s e) = true.
Proof. destruct e; try discriminate; destruct s; try reflexivity; cbn; destruct (_ =? _); reflexivity. Qed.

Lemma past_resolve_step s e : past_resolve s = true ->
  past_resolve (mstep s e) = true /\ (is_parse_ev e = true -> mstep s e = SBad).
Proof.
  intros Hs. destruct s; try discriminate Hs; destruct e; cbn; (split; [|intros He]);
    try reflexivity; try discriminate He; destruct (_ =? _); reflexivity.
Qed.

Lemma past_resolve_run tr : forall s, past_resolve s = true -> mfinal (fold_left mstep tr s) = true ->
  Forall (fun e => is_parse_ev e = false) tr.
Proof.
  induction tr as [|e tr IH]; intros s Hs Hfin; constructor; cbn [fold_left] in Hfin.
  - destruct (past_resolve_step s e Hs) as [_ H]. destruct (is_parse_ev e); [|reflexivity].
    rewrite H, sbad_absorbing in Hfin by reflexivity. discriminate.
  - apply (IH (mstep s e)); [apply past_resolve_step, Hs|exact Hfin].
Qed.

(* through the monitor: the trace is accepted, and past a format event the monitor accepts no parse event *)
Lemma resolve_before_format c stdin t pre e post :
  format_ev e = true -> fst (run_root c stdin t) = pre ++ e :: post ->
  Forall (fun e => is_parse_ev e = false) post.
Proof.
  intros He H. pose proof (accepts_spec_lemma c stdin t) as Ha. unfold accepts in Ha.
  rewrite H, fold_left_app in Ha. cbn [fold_left] in Ha.
  exact (past_resolve_run post _ (format_ev_step _ e He) Ha).
Qed.

Lemma emit_after_all_resolve_lemma c stdin t pre p post :
  fst (run_root c stdin t) = pre ++ Emitted p :: post ->
  Forall (fun e => is_parse_ev e = false) post.
Proof. apply resolve_before_format. reflexivity. Qed.

Lemma accepts_run_one scfg r : accepts (fst (run_one scfg r)) = true.
Proof.
  rewrite run_one_eq. destruct (negb (r_exists r) || r_is_dir r); [reflexivity|].
  destruct (r_load r); try reflexivity; apply accepts_spec_lemma.
Qed.

(* the monitor is not trivial *)
Lemma accepts_rejects :
  accepts [Parsed 1; ResolveErr; Formatted 1; Emitted 1] = false /\
  accepts [Parsed 1; Emitted 1] = false /\
  accepts [Parsed 1; Formatted 1; Emitted 2] = false /\
  accepts [Parsed 1; Formatted 1; Emitted 1; Parsed 2] = false.
Proof. repeat split. Qed.
