(* C08/Examples.v — non-vacuity: each hypothesis of a C08 theorem is met by a non-trivial value,
   and the witnesses of the ..._refuted theorems, spelled out *)
From V Require Import Base.Text C08.Model C08.Lemmas.
Local Open Scope N_scope.

(* CR CR LF under Unix: one CR goes, a CR LF is left *)
Example ex_unix_crcrlf : to_unix [CR; CR; LF] = [CR; LF] /\ to_unix [CR; LF] = [LF].
Proof. vm_compute. auto. Qed.
Example ex_unix_crcrlf_strip : strip_term (to_unix [CR; CR; LF]) = [LF] /\ strip_term [CR; CR; LF] = [CR; LF].
Proof. vm_compute. auto. Qed.
(* the same text under Windows is left alone *)
Example ex_windows_crcrlf : to_windows [CR; CR; LF] = [CR; CR; LF].
Proof. vm_compute. reflexivity. Qed.

(* a file a CR LF b CR LF: first terminator CR LF, yet Auto resolves to Unix; the text
   apply_newline_style is handed is a LF b LF *)
Example ex_auto_crlf_file :
  rustc_normalize [97; CR; LF; 98; CR; LF] = [97; LF; 98; LF] /\
  auto_detect [97; CR; LF; 98; CR; LF] = Windows /\
  auto_style_seen [97; CR; LF; 98; CR; LF] = Unix /\
  apply_to_file NSAuto [120; LF] [97; CR; LF; 98; CR; LF] = [120; LF].
Proof. vm_compute. auto. Qed.
(* only CR CR LF makes Auto say Windows *)
Example ex_auto_crcrlf_file :
  first_term_is_crcrlf [97; CR; CR; LF] /\ auto_style_seen [97; CR; CR; LF] = Windows.
Proof.
  split; [|reflexivity]. exists [97], []. split; [reflexivity|]. intros [H|[]]; discriminate H.
Qed.

(* buffer a LF CR: append gives a LF CR LF, the scanner counts 2 (CR skipped, count kept), one char is
   cut: a LF CR, which does not end with LF at all *)
Example ex_tail_lf_cr :
  newline_count [97; LF; CR; LF] = 2 /\ finish [97; LF; CR] = [97; LF; CR].
Proof. vm_compute. auto. Qed.
(* a CR LF LF-run at the end of the buffer (CRs first) is fine *)
Example ex_tail_cr_first : finish [97; CR; LF; LF; LF] = [97; CR; LF].
Proof. vm_compute. reflexivity. Qed.
(* truncate twice differs from once *)
Example ex_truncate_twice :
  truncate [LF; LF; CR; CR] = [LF; LF; CR] /\ truncate [LF; LF; CR] = [LF; LF].
Proof. vm_compute. auto. Qed.

(* lower bound 2, upper bound 1: nothing requested, 3 newlines pushed (2 blank lines > upper bound 1) *)
Example ex_clamp_lo_gt_hi : vspace 2 1 0 0 = 3.
Proof. vm_compute. reflexivity. Qed.
(* lower 1, upper 0: 2 requested, 1 pushed; a second run pushes 1 more *)
Example ex_clamp_idem_lo_gt_hi : vspace 1 0 0 2 = 1 /\ vspace 1 0 1 0 = 1.
Proof. vm_compute. auto. Qed.

(* offset 2 through the fast path drops one space *)
Example ex_fast_offset2 :
  indent_string false 4 4 0 2 = Some [SP; SP; SP] /\ indent_slow 2 0 4 = [SP; SP; SP; SP].
Proof. vm_compute. auto. Qed.

(* unix_ok_partial, to_unix_idem_partial, only_terminators_unix_partial: mixed terminators, lone CR *)
Definition t_mixed : text := [97; CR; LF; 98; CR; 99; LF; CR; LF].
Example ex_mixed_no_ccl : no_cr_cr_lf t_mixed.
Proof. apply has_ccl_spec. vm_compute. reflexivity. Qed.
Example ex_mixed_unix : to_unix t_mixed = [97; LF; 98; CR; 99; LF; LF] /\ to_unix t_mixed <> t_mixed.
Proof. split; [vm_compute; reflexivity|vm_compute; discriminate]. Qed.
Example ex_mixed_windows : to_windows t_mixed = [97; CR; LF; 98; CR; 99; CR; LF; CR; LF].
Proof. vm_compute. reflexivity. Qed.
Example ex_mixed_windows_ok : all_lf_after_cr (to_windows t_mixed).
Proof. apply windows_ok_lemma. Qed.

(* auto_first, both sides inhabited *)
Example ex_auto_windows : first_term_is_crlf [97; CR; LF; 98; LF] /\ auto_detect [97; CR; LF; 98; LF] = Windows.
Proof.
  split; [|reflexivity]. exists [97], [98; LF]. split; [reflexivity|]. intros [H|[]]; discriminate H.
Qed.
Example ex_auto_unix : auto_detect [97; LF; 98; CR; LF] = Unix /\ ~ first_term_is_crlf [97; LF; 98; CR; LF].
Proof.
  split; [reflexivity|]. intros H. apply auto_first_lemma in H. discriminate H.
Qed.
(* auto_no_lf *)
Example ex_auto_no_lf : ~ In LF [97; CR; 98] /\ auto_detect [97; CR; 98] = Unix.
Proof. split; [|reflexivity]. intros [H|[H|[H|[]]]]; discriminate H. Qed.
(* auto_seen_plain_crlf / auto_crlf_file_gets_unix *)
Example ex_plain_crlf_hyps : ~ In LF [97; 98] /\ (forall p', [97; 98] <> p' ++ [CR]).
Proof.
  split; [intros [H|[H|[]]]; discriminate H|].
  intros p' E. change [97; 98] with ([97] ++ [98]) in E. apply app_inj_tail in E. destruct E as [_ E]. discriminate E.
Qed.
(* apply_auto *)
Example ex_apply_auto :
  apply_newline_style NSAuto [120; LF] [97; CR; LF] = [120; CR; LF] /\
  apply_newline_style NSAuto [120; CR; LF] [97; LF] = [120; LF].
Proof. vm_compute. auto. Qed.

(* one_final_newline, emit_tail, truncate_idem_partial, finish_stable: count 0 at the end of core *)
Definition core1 : text := [97; LF; 98; CR].
Example ex_core_count : newline_count core1 = 0.
Proof. reflexivity. Qed.
Example ex_core_finish : finish (core1 ++ repeat LF 3) = [97; LF; 98; CR; LF].
Proof. vm_compute. reflexivity. Qed.
Example ex_core_emit :
  to_windows (finish (core1 ++ repeat LF 3)) = [97; CR; LF; 98; CR; LF] /\
  to_unix (finish (core1 ++ repeat LF 3)) = [97; LF; 98; LF].
Proof. vm_compute. auto. Qed.
(* one_final_newline_no_cr *)
Example ex_no_cr : ~ In CR [97; LF; LF; LF] /\ finish [97; LF; LF; LF] = [97; LF].
Proof. split; [|vm_compute; reflexivity]. intros [H|[H|[H|[H|[]]]]]; discriminate H. Qed.

(* clamp_bounds, clamp_idem, push_vspace_*: lo <= hi with a real clamp on both sides *)
Example ex_clamp : 1 <= 2 /\ vspace 1 2 0 7 = 3 /\ vspace 1 2 0 0 = 2 /\ vspace 1 2 5 4 = 0 /\ vspace 1 2 1 1 = 1.
Proof. split; [lia|]. vm_compute. auto. Qed.
Example ex_clamp_within : 1 + 1 <= 2 + 1 /\ 2 + 1 <= 2 + 1 /\ vspace 1 2 1 2 = 2.
Proof. split; [lia|split; [lia|reflexivity]]. Qed.
Example ex_push : push_vertical_spaces 0 1 [97; LF] 5 = [97; LF; LF] /\ trailing_lfs [97; LF] = 1.
Proof. vm_compute. auto. Qed.

(* indent_shape, fast_path_eq, from_width_roundtrip, indent_visual_width *)
Example ex_indent_tabs : indent_string true 4 8 3 0 = Some [LF; TAB; TAB; SP; SP; SP].
Proof. vm_compute. reflexivity. Qed.
Example ex_indent_spaces : indent_string false 4 8 3 1 = Some (repeat SP 11).
Proof. vm_compute. reflexivity. Qed.
Example ex_indent_long : indent_string false 4 80 4 1 = Some (repeat SP 84).   (* slow path *)
Proof. vm_compute. reflexivity. Qed.
Example ex_from_width : from_width true 4 11 = Some (MkIndent 8 3) /\ from_width false 4 11 = Some (MkIndent 11 0).
Proof. vm_compute. auto. Qed.
Example ex_unindent :
  indent_block_unindent 4 (MkIndent 2 3) = Some (MkIndent 2 0) /\
  indent_block_unindent 4 (MkIndent 8 3) = Some (MkIndent 4 3).
Proof. vm_compute. auto. Qed.
(* block_indent not a multiple of tab_spaces with hard tabs: columns are lost (why indent_visual_width needs it) *)
Example ex_indent_not_multiple : indent_string true 4 6 0 1 = Some [TAB].
Proof. vm_compute. reflexivity. Qed.

(* remove_trailing_ws_ok and the InString exception *)
Definition s_code : list (kind * char) :=
  [(Normal, 97); (Normal, SP); (Normal, TAB); (Normal, LF); (Normal, SP); (Normal, LF); (Normal, 98); (Normal, SP)].
Example ex_rtws_hyp : forall k, In (k, LF) s_code -> kind_is_instring k = false.
Proof.
  intros k H.
  assert (F : forallb (fun p => negb (kind_is_instring (fst p))) s_code = true) by reflexivity.
  rewrite forallb_forall in F. apply negb_true_iff, (F _ H).
Qed.
Example ex_rtws_code : remove_trailing_white_spaces s_code = [97; LF; LF; 98].
Proof. vm_compute. reflexivity. Qed.
Example ex_rtws_string :
  remove_trailing_white_spaces [(InString, 97); (InString, SP); (InString, LF); (InString, 98); (InString, SP)]
  = [97; SP; LF; 98].
Proof. vm_compute. reflexivity. Qed.
Example ex_rtws_line_hyp : no_lf_stream [(Normal, 97); (Normal, SP)].
Proof. repeat constructor; discriminate. Qed.
(* strip_trailing_ws_idem_nostring_partial: the constant classification is a reclass meeting the hypotheses *)
Definition reclass_normal (t : text) : list (kind * char) := map (fun c => (Normal, c)) t.
Example ex_reclass_hyps :
  (forall t, map snd (reclass_normal t) = t) /\
  (forall t k, In (k, LF) (reclass_normal t) -> kind_is_instring k = false).
Proof.
  split.
  - intros t. unfold reclass_normal. rewrite map_map. cbn [snd]. apply map_id.
  - intros t k H. unfold reclass_normal in H. apply in_map_iff in H. destruct H as (c & E & _).
    injection E as <- _. reflexivity.
Qed.

(* skip_empty_lines *)
Example ex_skip :
  skip_empty_lines [SP; LF; TAB; CR; LF; SP; 97; LF; LF] = [SP; 97; LF; LF] /\
  skip_empty_lines_pos [SP; LF; TAB; CR; LF; SP; 97; LF; LF] = 5.
Proof. vm_compute. auto. Qed.
Example ex_skip_all_blank : skip_empty_lines [SP; LF; SP] = [SP].
Proof. vm_compute. reflexivity. Qed.
