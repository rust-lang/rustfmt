(* C08/Props.v — the property theorems of C08 (statements only; proofs in Lemmas.v).
   C08: "For every source that contains at least one token or comment, the emitted text ends with exactly one
   line terminator and does not start with a blank line; all of its line terminators follow newline_style (Unix:
   no CRLF; Windows: every LF preceded by CR; Auto: the style of the first terminator of the input file), and
   converting the style changes nothing but the terminators. Between consecutive items and between consecutive
   statements there are never more than blank_lines_upper_bound blank lines (and never more than one inside a
   field, variant, arm or argument list), and outside string literals, comments, skipped code and macro bodies
   that are copied verbatim every line is indented with spaces only (hard_tabs off) or with tabs followed only
   by alignment spaces (hard_tabs on)."
   Every statement is for all texts / all numbers (no bound).  The statements are about the text-level passes
   (newline_style.rs, the tail handling of formatting.rs, push_vertical_spaces, Indent, remove_trailing_white_spaces,
   skip_empty_lines); that the visitor routes every blank-line run and every indentation through them is not
   modelled here.  The clauses that are FALSE of the code as it stands are the ..._refuted theorems. *)
From V Require Import Base.Text C08.Model C08.Lemmas.
Local Open Scope N_scope.

(* Windows clause: in the converted text every LF is immediately preceded by CR *)
Theorem windows_ok : forall t : text, all_lf_after_cr (to_windows t).
Proof. exact windows_ok_lemma. Qed.
Print Assumptions windows_ok.

(* pass idempotence (used by C02): converting to Windows twice = once *)
Theorem to_windows_idem : forall t : text, to_windows (to_windows t) = to_windows t.
Proof. exact to_windows_idem_lemma. Qed.
Print Assumptions to_windows_idem.

(* "changes nothing but the terminators", Windows: equal after deleting every CR that precedes an LF *)
Theorem only_terminators_windows : forall t : text, strip_term (to_windows t) = strip_term t.
Proof. exact only_terminators_windows_lemma. Qed.
Print Assumptions only_terminators_windows.

(* str::replace(CR LF, LF) is rustc's normalize_newlines: it deletes exactly the CRs that precede an LF *)
Theorem to_unix_is_normalize : forall t : text, to_unix t = rustc_normalize t.
Proof. exact to_unix_is_normalize_lemma. Qed.
Print Assumptions to_unix_is_normalize.

(* Unix clause (no CRLF in the output) is FALSE: CR CR LF becomes CR LF *)
Theorem unix_ok_refuted : exists t : text, ~ no_crlf (to_unix t).
Proof. exact unix_ok_refuted_lemma. Qed.
Print Assumptions unix_ok_refuted.

(* Unix clause for texts without CR CR LF; missing: texts containing CR CR LF *)
Theorem unix_ok_partial : forall t : text, no_cr_cr_lf t -> no_crlf (to_unix t).
Proof. exact unix_ok_partial_lemma. Qed.
Print Assumptions unix_ok_partial.

(* that class is exact *)
Theorem unix_ok_exact : forall t : text, no_crlf (to_unix t) <-> no_cr_cr_lf t.
Proof. exact unix_ok_iff_lemma. Qed.
Print Assumptions unix_ok_exact.

(* pass idempotence of to_unix is FALSE *)
Theorem to_unix_idem_refuted : exists t : text, to_unix (to_unix t) <> to_unix t.
Proof. exact to_unix_idem_refuted_lemma. Qed.
Print Assumptions to_unix_idem_refuted.

(* pass idempotence of to_unix without CR CR LF; missing: texts containing CR CR LF *)
Theorem to_unix_idem_partial : forall t : text, no_cr_cr_lf t -> to_unix (to_unix t) = to_unix t.
Proof. exact to_unix_idem_partial_lemma. Qed.
Print Assumptions to_unix_idem_partial.

(* exactly that class *)
Theorem to_unix_idem_exact : forall t : text, to_unix (to_unix t) = to_unix t <-> no_cr_cr_lf t.
Proof. exact to_unix_idem_iff_lemma. Qed.
Print Assumptions to_unix_idem_exact.

(* "changes nothing but the terminators", Unix, is FALSE (the CR that survives from CR CR LF becomes part of a terminator) *)
Theorem only_terminators_unix_refuted : exists t : text, strip_term (to_unix t) <> strip_term t.
Proof. exact only_terminators_unix_refuted_lemma. Qed.
Print Assumptions only_terminators_unix_refuted.

(* "changes nothing but the terminators", Unix, without CR CR LF; missing: texts containing CR CR LF *)
Theorem only_terminators_unix_partial : forall t : text, no_cr_cr_lf t -> strip_term (to_unix t) = strip_term t.
Proof. exact only_terminators_unix_partial_lemma. Qed.
Print Assumptions only_terminators_unix_partial.

(* converting Windows then Unix = converting to Unix (all texts) *)
Theorem unix_after_windows : forall t : text, to_unix (to_windows t) = to_unix t.
Proof. exact unix_after_windows_lemma. Qed.
Print Assumptions unix_after_windows.

(* auto_detect says Windows exactly when the first LF exists and is immediately preceded by CR *)
Theorem auto_first : forall t : text, auto_detect t = Windows <-> first_term_is_crlf t.
Proof. exact auto_first_lemma. Qed.
Print Assumptions auto_first.

(* the position-0 corner (saturating_sub makes the code inspect the LF itself) is harmless *)
Theorem auto_lf_first : forall t : text, auto_detect (LF :: t) = Unix.
Proof. exact auto_lf_first_lemma. Qed.
Print Assumptions auto_lf_first.

(* no LF at all: native style, Unix on this platform *)
Theorem auto_no_lf : forall t : text, ~ In LF t -> auto_detect t = Unix.
Proof. exact auto_no_lf_lemma. Qed.
Print Assumptions auto_no_lf.

(* Auto clause (style of the first terminator of the input FILE) is FALSE: detection runs on the text
   rustc has already normalised *)
Theorem auto_follows_input_refuted : exists raw : text, first_term_is_crlf raw /\ auto_style_seen raw = Unix.
Proof. exact auto_follows_input_refuted_lemma. Qed.
Print Assumptions auto_follows_input_refuted.

(* exactly when Auto resolves to Windows for a file: its first LF is preceded by CR CR *)
Theorem auto_seen_never_windows_on_crlf : forall raw : text,
  auto_style_seen raw = Windows <-> first_term_is_crcrlf raw.
Proof. exact auto_seen_lemma. Qed.
Print Assumptions auto_seen_never_windows_on_crlf.

(* every file whose first terminator is an ordinary CR LF (one CR) is seen as Unix ... *)
Theorem auto_seen_plain_crlf : forall pre post : text,
  ~ In LF pre -> (forall p', pre <> p' ++ [CR]) -> auto_style_seen (pre ++ CR :: LF :: post) = Unix.
Proof. exact auto_seen_plain_crlf_lemma. Qed.
Print Assumptions auto_seen_plain_crlf.

(* ... so with Auto its formatted text gets Unix terminators *)
Theorem auto_crlf_file_gets_unix : forall pre post formatted : text,
  ~ In LF pre -> (forall p', pre <> p' ++ [CR]) ->
  apply_to_file NSAuto formatted (pre ++ CR :: LF :: post) = to_unix formatted.
Proof. exact auto_crlf_file_gets_unix_lemma. Qed.
Print Assumptions auto_crlf_file_gets_unix.

(* apply_newline_style with Auto, on the text it is handed: follows that text's first terminator *)
Theorem apply_auto : forall formatted raw_seen : text,
  (first_term_is_crlf raw_seen -> apply_newline_style NSAuto formatted raw_seen = to_windows formatted) /\
  (~ first_term_is_crlf raw_seen -> apply_newline_style NSAuto formatted raw_seen = to_unix formatted).
Proof. exact apply_auto_lemma. Qed.
Print Assumptions apply_auto.

(* text.len() - newline_count never underflows *)
Theorem truncate_no_underflow : forall t : text, newline_count t <= N.of_nat (length t).
Proof. exact truncate_no_underflow_lemma. Qed.
Print Assumptions truncate_no_underflow.

(* final-newline clause, guarded: if the scanner's count is 0 at the end of core (core is empty or its last
   non-CR char is not LF), then whatever number of LFs follows, the result is core plus one LF *)
Theorem one_final_newline : forall (core : text) (k : nat), newline_count core = 0 ->
  finish (core ++ repeat LF k) = core ++ [LF] /\ ends_with_one_lf (finish (core ++ repeat LF k)).
Proof. exact one_final_newline_lemma. Qed.
Print Assumptions one_final_newline.

(* in particular for every buffer without CR *)
Theorem one_final_newline_no_cr : forall buf : text, ~ In CR buf -> ends_with_one_lf (finish buf).
Proof. exact one_final_newline_no_cr_lemma. Qed.
Print Assumptions one_final_newline_no_cr.

(* final-newline clause for every buffer is FALSE: the scanner skips CR without resetting its count *)
Theorem one_final_newline_refuted : exists buf : text, ~ ends_with_one_lf (finish buf).
Proof. exact one_final_newline_refuted_lemma. Qed.
Print Assumptions one_final_newline_refuted.

(* the same after the style conversion: exactly one CR LF (Windows) / one LF (Unix) at the end *)
Theorem emit_tail : forall (core : text) (k : nat), newline_count core = 0 ->
  ends_with_one_crlf (to_windows (finish (core ++ repeat LF k))) /\
  ends_with_one_lf (to_unix (finish (core ++ repeat LF k))).
Proof. exact emit_tail_lemma. Qed.
Print Assumptions emit_tail.

(* pass idempotence of the truncation is FALSE in general *)
Theorem truncate_idem_refuted : exists t : text, truncate (truncate t) <> truncate t.
Proof. exact truncate_idem_refuted_lemma. Qed.
Print Assumptions truncate_idem_refuted.

(* pass idempotence of the truncation under the guard of one_final_newline; missing: texts whose final
   CR/LF run has a CR after an LF *)
Theorem truncate_idem_partial : forall (core : text) (k : nat), newline_count core = 0 ->
  truncate (truncate (core ++ repeat LF k)) = truncate (core ++ repeat LF k).
Proof. exact truncate_idem_partial_lemma. Qed.
Print Assumptions truncate_idem_partial.

(* the finished text is a fixed point of the truncation *)
Theorem finish_stable : forall (core : text) (k : nat), newline_count core = 0 ->
  truncate (finish (core ++ repeat LF k)) = finish (core ++ repeat LF k).
Proof. exact finish_stable_lemma. Qed.
Print Assumptions finish_stable.

(* blank-line clause: after push_vertical_spaces the run of newlines is within [lo+1, hi+1], unless the
   buffer already had more than hi+1 (then nothing is added) *)
Theorem clamp_bounds : forall lo hi offset n : N, lo <= hi ->
  let k := vspace lo hi offset n in
  (lo + 1 <= offset + k /\ offset + k <= hi + 1) \/ (hi + 1 < offset /\ k = 0).
Proof. exact clamp_bounds_lemma. Qed.
Print Assumptions clamp_bounds.

(* with blank_lines_lower_bound > blank_lines_upper_bound (not rejected by the config) it is FALSE *)
Theorem clamp_bounds_refuted : exists lo hi offset n : N,
  let k := vspace lo hi offset n in
  ~ ((lo + 1 <= offset + k /\ offset + k <= hi + 1) \/ (hi + 1 < offset /\ k = 0)).
Proof. exact clamp_bounds_refuted_lemma. Qed.
Print Assumptions clamp_bounds_refuted.

(* a request that is within the bounds is kept as it is *)
Theorem clamp_within : forall lo hi offset n : N,
  lo + 1 <= n + offset -> n + offset <= hi + 1 -> vspace lo hi offset n = n.
Proof. exact clamp_within_lemma. Qed.
Print Assumptions clamp_within.

(* pass idempotence: re-running on the result adds nothing *)
Theorem clamp_idem : forall lo hi offset n : N, lo <= hi ->
  vspace lo hi (offset + vspace lo hi offset n) 0 = 0.
Proof. exact clamp_idem_lemma. Qed.
Print Assumptions clamp_idem.

(* FALSE when lo > hi *)
Theorem clamp_idem_refuted : exists lo hi offset n : N,
  vspace lo hi (offset + vspace lo hi offset n) 0 <> 0.
Proof. exact clamp_idem_refuted_lemma. Qed.
Print Assumptions clamp_idem_refuted.

(* clamp_bounds on the buffer: the run of LFs at its end after the push *)
Theorem push_vspace_bounds : forall (lo hi : N) (buf : text) (n : N), lo <= hi ->
  let out := push_vertical_spaces lo hi buf n in
  (lo + 1 <= trailing_lfs out /\ trailing_lfs out <= hi + 1) \/ (hi + 1 < trailing_lfs buf /\ out = buf).
Proof. exact push_vspace_bounds_lemma. Qed.
Print Assumptions push_vspace_bounds.

(* clamp_idem on the buffer *)
Theorem push_vspace_idem : forall (lo hi : N) (buf : text) (n : N), lo <= hi ->
  push_vertical_spaces lo hi (push_vertical_spaces lo hi buf n) 0 = push_vertical_spaces lo hi buf n.
Proof. exact push_vspace_idem_lemma. Qed.
Print Assumptions push_vspace_idem.

(* indentation clause: spaces only (hard_tabs off), tabs then alignment spaces (hard_tabs on); offset 0
   (to_string_with_newline) puts one LF in front, offset 1 (to_string) nothing *)
Theorem indent_shape : forall (hard_tabs : bool) (tab_spaces block align offset : N),
  offset <= 1 -> (hard_tabs = true -> 0 < tab_spaces) ->
  indent_string hard_tabs tab_spaces block align offset =
  Some ((if offset =? 0 then [LF] else [])
        ++ (if hard_tabs
            then repeat TAB (N.to_nat (block / tab_spaces)) ++ repeat SP (N.to_nat align)
            else repeat SP (N.to_nat (block + align)))).
Proof. exact indent_shape_lemma. Qed.
Print Assumptions indent_shape.

(* the INDENT_BUFFER fast path gives what the allocating path gives (offsets 0 and 1, the only ones passed) *)
Theorem fast_path_eq : forall (hard_tabs : bool) (tab_spaces block align offset : N),
  offset <= 1 -> (hard_tabs = true -> 0 < tab_spaces) ->
  indent_string hard_tabs tab_spaces block align offset =
  Some (indent_slow offset (if hard_tabs then block / tab_spaces else 0)
                           (if hard_tabs then align else block + align)).
Proof. exact fast_path_eq_lemma. Qed.
Print Assumptions fast_path_eq.

(* for an offset of 2 or more (never passed by to_string / to_string_with_newline) the two paths differ *)
Theorem fast_path_offset2_refuted : exists (hard_tabs : bool) (tab_spaces block align offset : N),
  0 < tab_spaces /\
  indent_string hard_tabs tab_spaces block align offset <>
  Some (indent_slow offset (if hard_tabs then block / tab_spaces else 0)
                           (if hard_tabs then align else block + align)).
Proof. exact fast_path_offset2_refuted_lemma. Qed.
Print Assumptions fast_path_offset2_refuted.

(* from_width keeps the width; with hard tabs block_indent is a multiple of tab_spaces and alignment < tab_spaces *)
Theorem from_width_roundtrip : forall (hard_tabs : bool) (tab_spaces w : N), 0 < tab_spaces ->
  exists i, from_width hard_tabs tab_spaces w = Some i /\ indent_width i = w
            /\ (hard_tabs = true -> (block_indent i) mod tab_spaces = 0 /\ alignment i < tab_spaces).
Proof. exact from_width_roundtrip_lemma. Qed.
Print Assumptions from_width_roundtrip.

(* block_unindent never underflows and never widens *)
Theorem block_unindent_total : forall (tab_spaces : N) (i : indent),
  exists i', indent_block_unindent tab_spaces i = Some i' /\ indent_width i' <= indent_width i.
Proof. exact block_unindent_total_lemma. Qed.
Print Assumptions block_unindent_total.

(* block_unindent undoes block_indent *)
Theorem block_unindent_indent : forall (tab_spaces : N) (i : indent),
  indent_block_unindent tab_spaces (indent_block_indent tab_spaces i) = Some i.
Proof. exact block_unindent_indent_lemma. Qed.
Print Assumptions block_unindent_indent.

(* the string occupies block + alignment columns (a tab = tab_spaces columns) when block is a multiple of tab_spaces *)
Theorem indent_visual_width : forall (hard_tabs : bool) (tab_spaces block align : N),
  0 < tab_spaces -> (hard_tabs = true -> block mod tab_spaces = 0) ->
  exists s, indent_string hard_tabs tab_spaces block align 1 = Some s /\
            visual_width tab_spaces s = block + align.
Proof. exact indent_visual_width_lemma. Qed.
Print Assumptions indent_visual_width.

(* no LF of the output follows a blank, provided no LF of the stream is of kind InString *)
Theorem remove_trailing_ws_ok : forall s : list (kind * char),
  (forall k, In (k, LF) s -> kind_is_instring k = false) ->
  no_trailing_ws (remove_trailing_white_spaces s).
Proof. exact remove_trailing_ws_ok_lemma. Qed.
Print Assumptions remove_trailing_ws_ok.

(* line by line, every stream: a line whose LF is InString is copied, any other line loses its trailing blanks *)
Theorem remove_trailing_ws_line : forall (l : list (kind * char)) (k : kind) (rest : list (kind * char)),
  no_lf_stream l ->
  remove_trailing_white_spaces (l ++ (k, LF) :: rest) =
  (if kind_is_instring k then map snd l else trim_end (map snd l))
  ++ LF :: remove_trailing_white_spaces rest.
Proof. exact rtws_line_lemma. Qed.
Print Assumptions remove_trailing_ws_line.

(* the unterminated last line loses its trailing blanks whatever their kind *)
Theorem remove_trailing_ws_last : forall l : list (kind * char),
  no_lf_stream l -> remove_trailing_white_spaces l = trim_end (map snd l).
Proof. exact rtws_last_lemma. Qed.
Print Assumptions remove_trailing_ws_last.

(* pass idempotence when every surviving char keeps its kind (rtws_kinded = the same loop on (kind, char),
   its chars are those of remove_trailing_white_spaces); missing: CharClasses re-classifying the output *)
Theorem strip_trailing_ws_idem_partial : forall s : list (kind * char),
  map snd (rtws_kinded s) = remove_trailing_white_spaces s /\
  rtws_kinded (rtws_kinded s) = rtws_kinded s.
Proof. exact strip_trailing_ws_idem_kinded_lemma. Qed.
Print Assumptions strip_trailing_ws_idem_partial.

(* pass idempotence at char level for ANY re-classification that keeps the chars, when neither
   classification has an InString LF; missing: texts with multi-line string literals *)
Theorem strip_trailing_ws_idem_nostring_partial :
  forall (s : list (kind * char)) (reclass : text -> list (kind * char)),
  (forall t, map snd (reclass t) = t) ->
  (forall t k, In (k, LF) (reclass t) -> kind_is_instring k = false) ->
  (forall k, In (k, LF) s -> kind_is_instring k = false) ->
  remove_trailing_white_spaces (reclass (remove_trailing_white_spaces s)) = remove_trailing_white_spaces s.
Proof. exact rtws_idem_nostring_lemma. Qed.
Print Assumptions strip_trailing_ws_idem_nostring_partial.

(* "does not start with a blank line": skip_empty_lines removes a prefix made of whole whitespace-only
   lines, and what is left has no LF at all or a first line that is not blank *)
Theorem skip_empty_lines_spec : forall t : text,
  exists pre, t = pre ++ skip_empty_lines t /\ all_ws pre
              /\ (pre = [] \/ exists p', pre = p' ++ [LF])
              /\ skip_stop (skip_empty_lines t).
Proof. exact skip_empty_lines_spec_lemma. Qed.
Print Assumptions skip_empty_lines_spec.

(* pass idempotence *)
Theorem skip_empty_lines_idem : forall t : text,
  skip_empty_lines (skip_empty_lines t) = skip_empty_lines t.
Proof. exact skip_empty_lines_idem_lemma. Qed.
Print Assumptions skip_empty_lines_idem.
