(* Both conversions are read through rustc_normalize (rn_): to_unix is it, to_windows is [expand] after it.
   The loop of remove_trailing_white_spaces is read as a function [rt] of the pending space_buffer and the rest
   of the stream ([rtk]: the same on (kind, char)); ntw_ stands for no_trailing_ws.
   Names in _lemma are the statements about the code themselves (Props.v quotes most of them); the rest
   is machinery. *)
From V Require Import Base.Text C08.Model.
Open Scope N_scope.
Arguments N.add : simpl never.
Arguments N.sub : simpl never.
Arguments N.mul : simpl never.
Arguments N.ltb : simpl never.
Arguments N.leb : simpl never.
Arguments N.eqb : simpl never.

Lemma is_lf_spec c : reflect (c = LF) (is_lf c).
Proof. unfold is_lf. apply N.eqb_spec. Qed.
Lemma is_cr_spec c : reflect (c = CR) (is_cr c).
Proof. unfold is_cr. apply N.eqb_spec. Qed.
Lemma is_lf_LF : is_lf LF = true. Proof. reflexivity. Qed.
Lemma is_cr_CR : is_cr CR = true. Proof. reflexivity. Qed.
Lemma is_lf_CR : is_lf CR = false. Proof. reflexivity. Qed.
Lemma is_cr_LF : is_cr LF = false. Proof. reflexivity. Qed.
Lemma CR_neq_LF : CR <> LF. Proof. discriminate. Qed.
Lemma ws_LF : is_whitespace LF = true. Proof. reflexivity. Qed.
Lemma nonws_not_lf c : is_whitespace c = false -> is_lf c = false.
Proof. intros H. destruct (is_lf_spec c) as [->|]; [discriminate H|reflexivity]. Qed.

Ltac case_lf c := destruct (is_lf_spec c) as [->|].
Ltac case_cr c := destruct (is_cr_spec c) as [->|].

Lemma rev_repeat {A} (x : A) n : rev (repeat x n) = repeat x n.
Proof.
  induction n as [|n IH]; cbn [repeat rev]; [reflexivity|].
  rewrite IH. symmetry. apply repeat_cons.
Qed.

Lemma firstn_repeat {A} (x : A) n m : (n <= m)%nat -> firstn n (repeat x m) = repeat x n.
Proof.
  revert m; induction n as [|n IH]; intros m Hm; [reflexivity|].
  destruct m as [|m]; [lia|]. cbn [repeat firstn]. rewrite IH by lia. reflexivity.
Qed.

Lemma snoc_app {A} (p : list A) x q : (p ++ [x]) ++ q = p ++ x :: q.
Proof. rewrite <- app_assoc. reflexivity. Qed.

Lemma notin_snoc (a x : char) p : ~ In a p -> x <> a -> ~ In a (p ++ [x]).
Proof. intros Hp Hx [Hi|[Hi|[]]]%in_app_or; [exact (Hp Hi)|exact (Hx Hi)]. Qed.

Definition ends_in (a : char) (t : text) : bool :=
  match rev t with c :: _ => c =? a | [] => false end.

Lemma ends_in_snoc a t x : ends_in a (t ++ [x]) = (x =? a).
Proof. unfold ends_in. rewrite rev_unit. reflexivity. Qed.

Lemma ends_in_spec a t : ends_in a t = true <-> exists b, t = b ++ [a].
Proof.
  split.
  - destruct t as [|x t _] using rev_ind; [discriminate|].
    rewrite ends_in_snoc. intros ->%N.eqb_eq. exists t. reflexivity.
  - intros [b ->]. rewrite ends_in_snoc. apply N.eqb_refl.
Qed.

Lemma not_ends_in_spec a t : (forall b, t <> b ++ [a]) <-> ends_in a t = false.
Proof.
  rewrite <- not_true_iff_false, ends_in_spec. split.
  - intros H [b E]. exact (H b E).
  - intros H b E. apply H. exists b. exact E.
Qed.

(* whether the text starts with LF / with CR LF: what the conversions look ahead for *)
Definition head_lf (t : text) : bool := match t with d :: _ => is_lf d | [] => false end.
Definition head_crlf (t : text) : bool := match t with d :: t' => is_cr d && head_lf t' | [] => false end.

Lemma head_lf_inv t : head_lf t = true -> exists t', t = LF :: t'.
Proof. destruct t as [|d t]; [discriminate|]. cbn. case_lf d; [exists t; reflexivity|discriminate]. Qed.

Lemma eqb_iff_Some_eq (d a : char) : (d =? a) = true <-> Some d = Some a.
Proof. rewrite N.eqb_eq. split; [intros ->; reflexivity|intros [= ->]; reflexivity]. Qed.

Lemma head_lf_nth t : head_lf t = true <-> nth_error t 0 = Some LF.
Proof. destruct t as [|d t]; [split; discriminate|apply eqb_iff_Some_eq]. Qed.

Lemma head_crlf_nth t : head_crlf t = true <-> nth_error t 0 = Some CR /\ nth_error t 1 = Some LF.
Proof.
  destruct t as [|d t]; [split; [discriminate|intros [H _]; discriminate H]|].
  cbn [head_crlf nth_error]. rewrite andb_true_iff, head_lf_nth. apply and_iff_compat_r, eqb_iff_Some_eq.
Qed.

Lemma head_lf_app a b : head_lf b = false -> head_lf (a ++ b) = head_lf a.
Proof. intros Hb. destruct a; [exact Hb|reflexivity]. Qed.

Lemma rn_cons c t :
  rustc_normalize (c :: t) = if is_cr c && head_lf t then rustc_normalize t else c :: rustc_normalize t.
Proof. destruct t; [|reflexivity]. cbn. rewrite andb_false_r. reflexivity. Qed.
Lemma rn_nil : rustc_normalize [] = [].
Proof. reflexivity. Qed.
Lemma rn_single c : rustc_normalize [c] = [c].
Proof. reflexivity. Qed.
Lemma rn_cons2 c d t :
  rustc_normalize (c :: d :: t) =
  if is_cr c && is_lf d then rustc_normalize (d :: t) else c :: rustc_normalize (d :: t).
Proof. reflexivity. Qed.
Lemma rn_lf t : rustc_normalize (LF :: t) = LF :: rustc_normalize t.
Proof. apply rn_cons. Qed.
Lemma rn_cr_lf t : rustc_normalize (CR :: LF :: t) = LF :: rustc_normalize t.
Proof. apply rn_lf. Qed.

Lemma rn_length t : (length (rustc_normalize t) <= length t)%nat.
Proof.
  induction t as [|c t IH]; [apply le_n|].
  rewrite rn_cons. destruct (is_cr c && head_lf t); cbn [length]; lia.
Qed.

Lemma head_lf_rn t : head_lf (rustc_normalize t) = head_lf t || head_crlf t.
Proof.
  destruct t as [|d t]; [reflexivity|]. rewrite rn_cons. cbn [head_lf head_crlf].
  destruct (is_cr d && head_lf t) eqn:E; [|rewrite orb_false_r; reflexivity].
  apply andb_prop in E. destruct E as [->%N.eqb_eq (t' & ->)%head_lf_inv].
  rewrite rn_lf. reflexivity.
Qed.

Lemma rn_app_head_nolf a b : head_lf b = false ->
  rustc_normalize (a ++ b) = rustc_normalize a ++ rustc_normalize b.
Proof.
  intros Hb. induction a as [|c a IH]; [reflexivity|].
  cbn [app]. rewrite !rn_cons, head_lf_app, IH by exact Hb.
  destruct (is_cr c && head_lf a); reflexivity.
Qed.

Lemma to_unix_cons2 c d t :
  to_unix (c :: d :: t) =
  if is_cr c then (if is_lf d then LF :: to_unix t else c :: to_unix (d :: t)) else c :: to_unix (d :: t).
Proof. reflexivity. Qed.

(* str::replace(CRLF, LF) deletes exactly the CRs that precede an LF; to_unix recurses two
   chars down, hence the statement for t and for c :: t at once *)
Lemma to_unix_is_normalize_cons t :
  to_unix t = rustc_normalize t /\ forall c, to_unix (c :: t) = rustc_normalize (c :: t).
Proof.
  induction t as [|d t [IH1 IH2]].
  - split; [reflexivity|]. intros c. cbn. destruct (is_cr c); reflexivity.
  - split; [apply IH2|]. intros c. rewrite to_unix_cons2, rn_cons2, IH2.
    destruct (is_cr c); [|reflexivity]. case_lf d; [|reflexivity]. rewrite rn_lf, IH1. reflexivity.
Qed.

Lemma to_unix_is_normalize_lemma t : to_unix t = rustc_normalize t.
Proof. apply to_unix_is_normalize_cons. Qed.

(* no_crlf and no_cr_cr_lf ("ccl") as boolean tests, negated *)
Fixpoint has_crlf (t : text) : bool :=
  match t with
  | c :: t' => match t' with d :: _ => (is_cr c && is_lf d) || has_crlf t' | [] => false end
  | [] => false
  end.
Fixpoint has_ccl (t : text) : bool :=
  match t with
  | c :: t' => match t' with
               | d :: e :: _ => (is_cr c && is_cr d && is_lf e) || has_ccl t'
               | _ => false
               end
  | [] => false
  end.

Lemma has_crlf_cons c t : has_crlf (c :: t) = head_crlf (c :: t) || has_crlf t.
Proof. destruct t; [|reflexivity]. cbn. rewrite andb_false_r. reflexivity. Qed.
Lemma has_ccl_cons c t : has_ccl (c :: t) = (is_cr c && head_crlf t) || has_ccl t.
Proof.
  destruct t as [|d [|e t]]; cbn [has_ccl head_crlf head_lf]; rewrite ?andb_false_r, ?andb_assoc; reflexivity.
Qed.

Lemma has_crlf_spec t : has_crlf t = false <-> no_crlf t.
Proof.
  induction t as [|c t IH].
  - split; [intros _ [|i] Hi; discriminate Hi|reflexivity].
  - rewrite has_crlf_cons, orb_false_iff, IH, <- not_true_iff_false, head_crlf_nth. split.
    + intros [Hh Ht] [|i] Hi; [|exact (Ht i Hi)]. intros Hj. exact (Hh (conj Hi Hj)).
    + intros H. split; [|exact (fun i => H (S i))]. intros [Hi Hj]. exact (H 0%nat Hi Hj).
Qed.

Lemma has_ccl_spec t : has_ccl t = false <-> no_cr_cr_lf t.
Proof.
  induction t as [|c t IH].
  - split; [intros _ [|i] Hi; discriminate Hi|reflexivity].
  - rewrite has_ccl_cons, orb_false_iff, IH, <- not_true_iff_false, andb_true_iff, head_crlf_nth. split.
    + intros [Hh Ht] [|i] Hi Hj; [|exact (Ht i Hi Hj)]. intros Hk. apply Hh.
      injection Hi as ->. auto.
    + intros H. split; [|exact (fun i => H (S i))]. intros [->%N.eqb_eq [Hi Hj]]. exact (H 0%nat eq_refl Hi Hj).
Qed.

Lemma rn_fix_iff t : rustc_normalize t = t <-> has_crlf t = false.
Proof.
  induction t as [|c t IH]; [split; reflexivity|].
  rewrite rn_cons, has_crlf_cons. cbn [head_crlf]. destruct (is_cr c && head_lf t).
  - split; [|discriminate]. intros H. pose proof (rn_length t) as Hl. rewrite H in Hl. cbn [length] in Hl. lia.
  - rewrite <- IH. split; [intros [= H]; exact H|intros ->; reflexivity].
Qed.

Lemma rn_nolf_id t : ~ In LF t -> rustc_normalize t = t.
Proof.
  intros Hn. apply rn_fix_iff, has_crlf_spec. intros i _ Hi. exact (Hn (nth_error_In _ _ Hi)).
Qed.

(* the output of to_unix contains CR LF exactly when the input contains CR CR LF *)
Lemma has_crlf_rn t : has_crlf (rustc_normalize t) = has_ccl t.
Proof.
  induction t as [|c t IH]; [reflexivity|].
  rewrite rn_cons, has_ccl_cons. destruct (is_cr c && head_lf t) eqn:E.
  - apply andb_prop in E. destruct E as [_ (t' & ->)%head_lf_inv].
    rewrite IH. cbn [head_crlf]. rewrite is_cr_LF, andb_false_r. reflexivity.
  - rewrite has_crlf_cons, IH. cbn [head_crlf]. rewrite head_lf_rn, andb_orb_distrib_r, E. reflexivity.
Qed.

(* "drop last CR": the CR of a CR LF, seen from the text in front of the LF (rn_app_lf) *)
Fixpoint dlc (p : text) : text :=
  match p with
  | [] => []
  | c :: p' => match p' with [] => if is_cr c then [] else [c] | _ :: _ => c :: dlc p' end
  end.

Lemma dlc_cons2 c d p : dlc (c :: d :: p) = c :: dlc (d :: p).
Proof. reflexivity. Qed.

Lemma dlc_snoc p x : dlc (p ++ [x]) = if is_cr x then p else p ++ [x].
Proof.
  induction p as [|c p IH]; [cbn; destruct (is_cr x); reflexivity|].
  cbn [app]. destruct (p ++ [x]) as [|d r] eqn:E; [destruct p; discriminate E|].
  rewrite dlc_cons2, IH. destruct (is_cr x); reflexivity.
Qed.

Lemma dlc_incl p x : In x (dlc p) -> In x p.
Proof.
  destruct p as [|y p _] using rev_ind; [intros []|]. rewrite dlc_snoc.
  destruct (is_cr y); [|exact (fun H => H)]. intros H. apply in_or_app. left. exact H.
Qed.

Lemma head_lf_dlc p : head_lf (dlc p) = head_lf p.
Proof. destruct p as [|d [|e p]]; [reflexivity| |reflexivity]. cbn. case_cr d; reflexivity. Qed.

Lemma rn_app_lf a q :
  rustc_normalize (a ++ LF :: q) = rustc_normalize (dlc a) ++ LF :: rustc_normalize q.
Proof.
  induction a as [|c a IH]; [apply rn_lf|]. cbn [app]. rewrite rn_cons, IH.
  destruct a as [|d a].
  - cbn [app dlc head_lf]. rewrite is_lf_LF, andb_true_r. destruct (is_cr c); reflexivity.
  - rewrite dlc_cons2, (rn_cons c), head_lf_dlc. cbn [app head_lf]. destruct (is_cr c && is_lf d); reflexivity.
Qed.

Lemma rn_first_lf p q : ~ In LF p ->
  rustc_normalize (p ++ LF :: q) = dlc p ++ LF :: rustc_normalize q.
Proof.
  intros Hn. rewrite rn_app_lf, rn_nolf_id; [reflexivity|]. intros Hi. exact (Hn (dlc_incl _ _ Hi)).
Qed.

Lemma ends_in_lf_rn a : ends_in LF (rustc_normalize a) = ends_in LF a.
Proof.
  destruct a as [|x a _] using rev_ind; [reflexivity|]. case_lf x.
  - rewrite rn_app_lf, !ends_in_snoc. reflexivity.
  - rewrite rn_app_head_nolf, rn_single, !ends_in_snoc by (apply is_lf_false; assumption). reflexivity.
Qed.

Lemma unix_ok_iff_lemma t : no_crlf (to_unix t) <-> no_cr_cr_lf t.
Proof. rewrite to_unix_is_normalize_lemma, <- has_crlf_spec, <- has_ccl_spec, has_crlf_rn. reflexivity. Qed.

Lemma unix_ok_partial_lemma t : no_cr_cr_lf t -> no_crlf (to_unix t).
Proof. apply unix_ok_iff_lemma. Qed.

Lemma to_unix_fix_lemma t : to_unix t = t <-> no_crlf t.
Proof. rewrite to_unix_is_normalize_lemma, rn_fix_iff. apply has_crlf_spec. Qed.

Lemma to_unix_idem_iff_lemma t : to_unix (to_unix t) = to_unix t <-> no_cr_cr_lf t.
Proof. rewrite to_unix_fix_lemma. apply unix_ok_iff_lemma. Qed.

Lemma to_unix_idem_partial_lemma t : no_cr_cr_lf t -> to_unix (to_unix t) = to_unix t.
Proof. apply to_unix_idem_iff_lemma. Qed.

Lemma only_terminators_unix_iff_lemma t : strip_term (to_unix t) = strip_term t <-> no_cr_cr_lf t.
Proof. unfold strip_term. rewrite <- !to_unix_is_normalize_lemma. apply to_unix_idem_iff_lemma. Qed.

Lemma only_terminators_unix_partial_lemma t : no_cr_cr_lf t -> strip_term (to_unix t) = strip_term t.
Proof. apply only_terminators_unix_iff_lemma. Qed.

Definition w_crcrlf : text := [CR; CR; LF].

Lemma unix_ok_refuted_lemma : exists t, ~ no_crlf (to_unix t).
Proof.
  exists w_crcrlf. rewrite <- has_crlf_spec. vm_compute. discriminate.
Qed.

Lemma to_unix_idem_refuted_lemma : exists t, to_unix (to_unix t) <> to_unix t.
Proof. exists w_crcrlf. vm_compute. discriminate. Qed.

Lemma only_terminators_unix_refuted_lemma : exists t, strip_term (to_unix t) <> strip_term t.
Proof. exists w_crcrlf. vm_compute. discriminate. Qed.

(* what to_windows does once no CR stands in front of an LF (to_windows_expand) *)
Fixpoint expand (u : text) : text :=
  match u with
  | [] => []
  | c :: u' => if is_lf c then CR :: LF :: expand u' else c :: expand u'
  end.

Lemma to_windows_cons c t :
  to_windows (c :: t) =
  if is_lf c then CR :: LF :: to_windows t
  else if is_cr c && head_lf t then to_windows t else c :: to_windows t.
Proof. destruct t; cbn; [rewrite andb_false_r|]; destruct (is_cr c); reflexivity. Qed.

Lemma to_windows_expand t : to_windows t = expand (rustc_normalize t).
Proof.
  induction t as [|c t IH]; [reflexivity|].
  rewrite to_windows_cons, rn_cons, IH. destruct (is_cr c && head_lf t) eqn:E; [|reflexivity].
  apply andb_prop in E. destruct E as [->%N.eqb_eq _]. reflexivity.
Qed.

Lemma head_lf_expand u : head_lf (expand u) = false.
Proof. destruct u as [|c u]; [reflexivity|]. cbn. destruct (is_lf c) eqn:E; [reflexivity|exact E]. Qed.

Lemma rn_expand u : rustc_normalize (expand u) = u.
Proof.
  induction u as [|c u IH]; [reflexivity|]. cbn [expand]. case_lf c.
  - rewrite rn_cr_lf, IH. reflexivity.
  - rewrite rn_cons, head_lf_expand, andb_false_r, IH. reflexivity.
Qed.

Lemma expand_app u v : expand (u ++ v) = expand u ++ expand v.
Proof.
  induction u as [|c u IH]; [reflexivity|]. cbn [app expand]. rewrite IH.
  destruct (is_lf c); reflexivity.
Qed.

Lemma expand_lf_after_cr u : all_lf_after_cr (expand u).
Proof.
  induction u as [|c u IH]; intros i Hi; [destruct i; discriminate Hi|].
  cbn [expand] in Hi |- *. destruct (is_lf c) eqn:E.
  - destruct i as [|[|i']]; [discriminate Hi|exists O; auto|].
    destruct (IH i' Hi) as (j & -> & Hj). exists (S (S j)). auto.
  - destruct i as [|i']; [injection Hi as ->; discriminate E|].
    destruct (IH i' Hi) as (j & -> & Hj). exists (S j). auto.
Qed.

Lemma ends_in_lf_expand u : ends_in LF (expand u) = ends_in LF u.
Proof.
  destruct u as [|x u _] using rev_ind; [reflexivity|].
  rewrite expand_app, ends_in_snoc. cbn [expand]. case_lf x; [rewrite <- (snoc_app _ CR)|]; apply ends_in_snoc.
Qed.

Lemma windows_ok_lemma t : all_lf_after_cr (to_windows t).
Proof. rewrite to_windows_expand. apply expand_lf_after_cr. Qed.

Lemma to_windows_idem_lemma t : to_windows (to_windows t) = to_windows t.
Proof. rewrite (to_windows_expand (to_windows t)), to_windows_expand, rn_expand. reflexivity. Qed.

Lemma only_terminators_windows_lemma t : strip_term (to_windows t) = strip_term t.
Proof. unfold strip_term. rewrite to_windows_expand. apply rn_expand. Qed.

(* converting in either order: the last conversion wins, up to the CR CR LF class *)
Lemma windows_after_unix_lemma t : no_cr_cr_lf t -> to_windows (to_unix t) = to_windows t.
Proof.
  intros H. rewrite !to_windows_expand. f_equal.
  apply (only_terminators_unix_partial_lemma t H).
Qed.
Lemma unix_after_windows_lemma t : to_unix (to_windows t) = to_unix t.
Proof. rewrite !to_unix_is_normalize_lemma. apply (only_terminators_windows_lemma t). Qed.

Lemma position_lf_spec t :
  match position_lf t with
  | Some p => exists pre post, t = pre ++ LF :: post /\ ~ In LF pre /\ length pre = p
  | None => ~ In LF t
  end.
Proof.
  induction t as [|c t IH]; [intros []|]. cbn [position_lf]. case_lf c.
  - exists [], t. split; [reflexivity|]. split; [intros []|reflexivity].
  - destruct (position_lf t) as [p|].
    + destruct IH as (pre & post & -> & Hn & <-). exists (c :: pre), post.
      split; [reflexivity|]. split; [|reflexivity]. intros [Hc|Hi]; [congruence|exact (Hn Hi)].
    + intros [Hc|Hi]; [congruence|exact (IH Hi)].
Qed.

Lemma position_lf_none t : position_lf t = None -> ~ In LF t.
Proof. intros H. pose proof (position_lf_spec t) as Hs. rewrite H in Hs. exact Hs. Qed.

Lemma first_lf_cases (t : text) :
  ~ In LF t \/ exists pre post, t = pre ++ LF :: post /\ ~ In LF pre.
Proof.
  pose proof (position_lf_spec t) as Hs. destruct (position_lf t); [right|left; exact Hs].
  destruct Hs as (pre & post & E & Hn & _). eauto.
Qed.

(* no LF; with all_ws this is wsc (defined further down) *)
Definition ws_nolf (sp : text) : Prop := Forall (fun c => is_lf c = false) sp.

Lemma nolf_forall l : ~ In LF l -> ws_nolf l.
Proof.
  intros Hn. apply Forall_forall. intros c Hc. case_lf c; [contradiction|reflexivity].
Qed.

Lemma position_lf_app pre post : ~ In LF pre -> position_lf (pre ++ LF :: post) = Some (length pre).
Proof.
  intros Hn%nolf_forall. induction Hn as [|c pre Hc _ IH]; [reflexivity|].
  cbn [app position_lf length]. rewrite Hc, IH. reflexivity.
Qed.

(* the char that is inspected is the last one of the first line *)
Lemma auto_detect_app pre post : ~ In LF pre ->
  auto_detect (pre ++ LF :: post) = if ends_in CR pre then Windows else Unix.
Proof.
  intros Hn. unfold auto_detect. rewrite position_lf_app by exact Hn.
  destruct pre as [|x pre' _] using rev_ind; [reflexivity|].
  rewrite ends_in_snoc, app_length, Nat.add_sub.
  (* index (length pre') into pre' ++ x :: LF :: post *)
  rewrite <- app_assoc, nth_error_app2, Nat.sub_diag by lia. reflexivity.
Qed.

Lemma auto_no_lf_lemma t : ~ In LF t -> auto_detect t = Unix.
Proof.
  intros Hn. unfold auto_detect. pose proof (position_lf_spec t) as Hs.
  destruct (position_lf t); [|reflexivity]. destruct Hs as (pre & post & -> & _).
  exfalso. apply Hn, in_elt.
Qed.

Lemma auto_first_lemma t : auto_detect t = Windows <-> first_term_is_crlf t.
Proof.
  split.
  - intros H. destruct (first_lf_cases t) as [Hn|(pre & post & -> & Hn)];
      [rewrite auto_no_lf_lemma in H by exact Hn; discriminate H|].
    rewrite auto_detect_app in H by exact Hn.
    destruct (ends_in CR pre) eqn:E; [|discriminate H]. apply ends_in_spec in E. destruct E as [p' ->].
    exists p', post. rewrite <- app_assoc. split; [reflexivity|].
    intros Hi'. apply Hn, in_or_app. left. exact Hi'.
  - intros (pre & post & -> & Hn).
    rewrite <- snoc_app, auto_detect_app, ends_in_snoc by (apply notin_snoc; [exact Hn|discriminate]).
    reflexivity.
Qed.

(* position 0: an LF at index 0 makes the code inspect index 0 itself, which is the LF *)
Lemma auto_lf_first_lemma t : auto_detect (LF :: t) = Unix.
Proof. reflexivity. Qed.

Lemma auto_seen_app pre post : ~ In LF pre ->
  auto_style_seen (pre ++ LF :: post) = if ends_in CR (dlc pre) then Windows else Unix.
Proof.
  intros Hn. unfold auto_style_seen. rewrite rn_first_lf by exact Hn.
  apply auto_detect_app. intros Hi. exact (Hn (dlc_incl _ _ Hi)).
Qed.

Lemma auto_seen_lemma raw : auto_style_seen raw = Windows <-> first_term_is_crcrlf raw.
Proof.
  split.
  - intros H. destruct (first_lf_cases raw) as [Hn|(p & q & -> & Hn)].
    { unfold auto_style_seen in H. rewrite rn_nolf_id, auto_no_lf_lemma in H by exact Hn. discriminate H. }
    rewrite auto_seen_app in H by exact Hn.
    destruct (ends_in CR (dlc p)) eqn:E; [clear H|discriminate H].
    destruct p as [|x p _] using rev_ind; [discriminate E|].
    revert E. rewrite dlc_snoc. case_cr x.
    + intros (p' & ->)%ends_in_spec. exists p', q. rewrite <- !app_assoc. split; [reflexivity|].
      intros Hi'. apply Hn, in_or_app. left. apply in_or_app. left. exact Hi'.
    + rewrite ends_in_snoc. intros E%N.eqb_eq. contradiction.
  - intros (pre & post & -> & Hn). rewrite <- 2 snoc_app, auto_seen_app.
    + rewrite dlc_snoc, is_cr_CR, ends_in_snoc. reflexivity.
    + apply notin_snoc; [apply notin_snoc; [exact Hn|]|]; discriminate.
Qed.

(* an ordinary CRLF file (first LF preceded by exactly one CR) is seen as Unix *)
Lemma auto_seen_plain_crlf_lemma pre post :
  ~ In LF pre -> (forall p', pre <> p' ++ [CR]) -> auto_style_seen (pre ++ CR :: LF :: post) = Unix.
Proof.
  intros Hn Hlast. rewrite <- snoc_app, auto_seen_app by (apply notin_snoc; [exact Hn|discriminate]).
  rewrite dlc_snoc, is_cr_CR. apply not_ends_in_spec in Hlast. rewrite Hlast. reflexivity.
Qed.

Definition w_crlf_file : text := [97; CR; LF; 98; CR; LF].

Lemma auto_follows_input_refuted_lemma :
  exists raw, first_term_is_crlf raw /\ auto_style_seen raw = Unix.
Proof.
  exists w_crlf_file. split.
  - exists [97], [98; CR; LF]. split; [reflexivity|].
    intros [H|[]]; discriminate H.
  - reflexivity.
Qed.

(* consequence for the file: with Auto, a formatted text gets Unix terminators
   although the file on disk used CR LF *)
Lemma auto_crlf_file_gets_unix_lemma pre post formatted :
  ~ In LF pre -> (forall p', pre <> p' ++ [CR]) ->
  apply_to_file NSAuto formatted (pre ++ CR :: LF :: post) = to_unix formatted.
Proof.
  intros Hn Hl. unfold apply_to_file, apply_newline_style, effective_newline_style.
  pose proof (auto_seen_plain_crlf_lemma pre post Hn Hl) as E. unfold auto_style_seen in E.
  rewrite E. reflexivity.
Qed.

Lemma apply_windows_lemma formatted raw_seen :
  apply_newline_style NSWindows formatted raw_seen = to_windows formatted.
Proof. reflexivity. Qed.
Lemma apply_unix_lemma formatted raw_seen :
  apply_newline_style NSUnix formatted raw_seen = to_unix formatted.
Proof. reflexivity. Qed.
Lemma apply_native_lemma formatted raw_seen :
  apply_newline_style NSNative formatted raw_seen = to_unix formatted.
Proof. reflexivity. Qed.
Lemma apply_auto_lemma formatted raw_seen :
  (first_term_is_crlf raw_seen -> apply_newline_style NSAuto formatted raw_seen = to_windows formatted) /\
  (~ first_term_is_crlf raw_seen -> apply_newline_style NSAuto formatted raw_seen = to_unix formatted).
Proof.
  unfold apply_newline_style, effective_newline_style. split; intros H.
  - apply auto_first_lemma in H. rewrite H. reflexivity.
  - destruct (auto_detect raw_seen) eqn:E; [|reflexivity].
    exfalso. apply H, auto_first_lemma, E.
Qed.

Lemma scan_nl_app n a b : scan_nl n (a ++ b) = scan_nl (scan_nl n a) b.
Proof.
  revert n; induction a as [|c a IH]; intros n; [reflexivity|].
  cbn [app scan_nl]. destruct (is_cr c); [apply IH|]. destruct (is_lf c); apply IH.
Qed.

Lemma scan_nl_snoc n t x :
  scan_nl n (t ++ [x]) = if is_cr x then scan_nl n t else if is_lf x then scan_nl n t + 1 else 0.
Proof. rewrite scan_nl_app. reflexivity. Qed.

Lemma scan_nl_repeat n k : scan_nl n (repeat LF k) = n + N.of_nat k.
Proof.
  revert n; induction k as [|k IH]; intros n; cbn [repeat scan_nl]; [lia|].
  rewrite is_cr_LF, is_lf_LF, IH. lia.
Qed.

Lemma scan_nl_bound n t : scan_nl n t <= n + N.of_nat (length t).
Proof.
  revert n; induction t as [|c t IH]; intros n; cbn [scan_nl length]; [lia|].
  destruct (is_cr c); [specialize (IH n); lia|].
  destruct (is_lf c); [specialize (IH (n + 1)); lia|specialize (IH 0); lia].
Qed.

(* the subtraction text.len() - newline_count cannot underflow *)
Lemma truncate_no_underflow_lemma t : newline_count t <= N.of_nat (length t).
Proof. unfold newline_count. pose proof (scan_nl_bound 0 t). lia. Qed.

Lemma truncate_core core k : newline_count core = 0 ->
  truncate (core ++ repeat LF k) = core ++ repeat LF (Nat.min k 1).
Proof.
  intros H0.
  assert (E : N.to_nat (truncate_len (core ++ repeat LF k)) = (length core + Nat.min k 1)%nat).
  { unfold truncate_len, newline_count in *. rewrite scan_nl_app, H0, scan_nl_repeat, app_length, repeat_length.
    destruct (N.ltb_spec 1 (0 + N.of_nat k)); lia. }
  unfold truncate. rewrite E, firstn_app_2, firstn_repeat by lia. reflexivity.
Qed.

Lemma finish_core core k : newline_count core = 0 -> finish (core ++ repeat LF k) = core ++ [LF].
Proof.
  intros H0. unfold finish, append_newline. rewrite <- app_assoc, <- repeat_cons.
  change (LF :: repeat LF k) with (repeat LF (S k)). rewrite truncate_core by exact H0.
  replace (Nat.min (S k) 1) with 1%nat by lia. reflexivity.
Qed.

Lemma scan_zero_not_lf_end core : newline_count core = 0 -> forall b', core <> b' ++ [LF].
Proof.
  intros H0 b' ->. unfold newline_count in H0. rewrite scan_nl_snoc, is_cr_LF, is_lf_LF in H0. lia.
Qed.

Lemma newline_count_dlc t : newline_count (dlc t) = newline_count t.
Proof.
  destruct t as [|x t _] using rev_ind; [reflexivity|]. rewrite dlc_snoc.
  destruct (is_cr x) eqn:E; [|reflexivity]. unfold newline_count. rewrite scan_nl_snoc, E. reflexivity.
Qed.

Lemma one_final_newline_lemma core k : newline_count core = 0 ->
  finish (core ++ repeat LF k) = core ++ [LF] /\ ends_with_one_lf (finish (core ++ repeat LF k)).
Proof.
  intros H0. rewrite finish_core by exact H0. split; [reflexivity|].
  exists core. split; [reflexivity|exact (scan_zero_not_lf_end core H0)].
Qed.

Lemma strip_lfs buf : exists core k, buf = core ++ repeat LF k /\ forall b', core <> b' ++ [LF].
Proof.
  induction buf as [|x buf IH] using rev_ind.
  - exists [], O. split; [reflexivity|]. intros [|y b']; discriminate.
  - case_lf x.
    + destruct IH as (core & k & -> & Hc). exists core, (S k). split; [|exact Hc].
      rewrite <- app_assoc, <- repeat_cons. reflexivity.
    + exists (buf ++ [x]), O. split; [symmetry; apply app_nil_r|].
      intros b' [_ H]%app_inj_tail. contradiction.
Qed.

Lemma one_final_newline_no_cr_lemma buf : ~ In CR buf -> ends_with_one_lf (finish buf).
Proof.
  intros Hn. destruct (strip_lfs buf) as (core & k & -> & Hc).
  apply one_final_newline_lemma.
  destruct core as [|x core _] using rev_ind; [reflexivity|].
  unfold newline_count. rewrite scan_nl_snoc.
  case_cr x; [exfalso; apply Hn; rewrite <- app_assoc; apply in_elt|].
  case_lf x; [exfalso; exact (Hc core eq_refl)|reflexivity].
Qed.

Definition w_lf_cr : text := [97; LF; CR].

(* the text that comes out ends with CR *)
Lemma one_final_newline_refuted_lemma : exists buf, ~ ends_with_one_lf (finish buf).
Proof.
  exists w_lf_cr. intros (body & E & _). replace (finish w_lf_cr) with ([97; LF] ++ [CR]) in E by reflexivity.
  apply app_inj_tail in E. destruct E as [_ E]. discriminate E.
Qed.

Lemma truncate_idem_partial_lemma core k : newline_count core = 0 ->
  truncate (truncate (core ++ repeat LF k)) = truncate (core ++ repeat LF k).
Proof.
  intros H0. rewrite (truncate_core core k H0). rewrite (truncate_core core _ H0).
  replace (Nat.min (Nat.min k 1) 1) with (Nat.min k 1) by lia. reflexivity.
Qed.

Definition w_lf_lf_cr_cr : text := [LF; LF; CR; CR].

Lemma truncate_idem_refuted_lemma : exists t, truncate (truncate t) <> truncate t.
Proof. exists w_lf_lf_cr_cr. vm_compute. discriminate. Qed.

Lemma finish_stable_lemma core k : newline_count core = 0 ->
  truncate (finish (core ++ repeat LF k)) = finish (core ++ repeat LF k).
Proof.
  intros H0. rewrite finish_core by exact H0.
  change [LF] with (repeat LF 1). rewrite truncate_core by exact H0. reflexivity.
Qed.

Lemma emit_tail_lemma core k : newline_count core = 0 ->
  ends_with_one_crlf (to_windows (finish (core ++ repeat LF k))) /\
  ends_with_one_lf (to_unix (finish (core ++ repeat LF k))).
Proof.
  intros H0. rewrite finish_core, to_windows_expand, to_unix_is_normalize_lemma, rn_app_lf by exact H0.
  assert (Hz : ends_in LF (rustc_normalize (dlc core)) = false).
  { rewrite ends_in_lf_rn. apply not_ends_in_spec, scan_zero_not_lf_end.
    rewrite newline_count_dlc. exact H0. }
  split.
  - exists (expand (rustc_normalize (dlc core))). split; [rewrite expand_app; reflexivity|].
    apply not_ends_in_spec. rewrite ends_in_lf_expand. exact Hz.
  - exists (rustc_normalize (dlc core)). split; [reflexivity|]. apply not_ends_in_spec, Hz.
Qed.

Lemma emit_tail_any_style_lemma s core k raw : newline_count core = 0 ->
  ends_with_one_crlf (emit s (core ++ repeat LF k) raw) \/ ends_with_one_lf (emit s (core ++ repeat LF k) raw).
Proof.
  intros H0. destruct (emit_tail_lemma core k H0) as [Hw Hu].
  unfold emit, apply_to_file, apply_newline_style.
  destruct (effective_newline_style s (rustc_normalize raw)); [left; exact Hw|right; exact Hu].
Qed.

(* the three cases of the clamp; N subtraction saturates, so the inner tests change nothing *)
Lemma vspace_spec lo hi offset n :
  let k := vspace lo hi offset n in
  (hi + 1 < n + offset /\ k = hi + 1 - offset) \/
  (n + offset <= hi + 1 /\ n + offset < lo + 1 /\ k = lo + 1 - offset) \/
  (lo + 1 <= n + offset <= hi + 1 /\ k = n).
Proof.
  unfold vspace. cbv zeta.
  destruct (N.ltb_spec (hi + 1) (n + offset)) as [H1|H1].
  - left. destruct (N.leb_spec (hi + 1) offset); lia.
  - right. destruct (N.ltb_spec (n + offset) (lo + 1)) as [H2|H2]; [left|right; lia].
    destruct (N.leb_spec (lo + 1) offset); lia.
Qed.

Lemma clamp_bounds_lemma lo hi offset n : lo <= hi ->
  let k := vspace lo hi offset n in
  (lo + 1 <= offset + k /\ offset + k <= hi + 1) \/ (hi + 1 < offset /\ k = 0).
Proof. intros Hle. pose proof (vspace_spec lo hi offset n) as H. cbv zeta in *. lia. Qed.

Lemma clamp_idem_lemma lo hi offset n : lo <= hi ->
  vspace lo hi (offset + vspace lo hi offset n) 0 = 0.
Proof.
  intros Hle. pose proof (vspace_spec lo hi offset n) as H1.
  pose proof (vspace_spec lo hi (offset + vspace lo hi offset n) 0) as H2. cbv zeta in *. lia.
Qed.

Lemma clamp_within_lemma lo hi offset n :
  lo + 1 <= n + offset -> n + offset <= hi + 1 -> vspace lo hi offset n = n.
Proof. intros Ha Hb. pose proof (vspace_spec lo hi offset n) as H. cbv zeta in *. lia. Qed.

Lemma clamp_bounds_refuted_lemma : exists lo hi offset n,
  let k := vspace lo hi offset n in
  ~ ((lo + 1 <= offset + k /\ offset + k <= hi + 1) \/ (hi + 1 < offset /\ k = 0)).
Proof. exists 2, 1, 0, 0. cbv zeta. replace (vspace 2 1 0 0) with 3 by reflexivity. lia. Qed.

Lemma clamp_idem_refuted_lemma : exists lo hi offset n,
  vspace lo hi (offset + vspace lo hi offset n) 0 <> 0.
Proof. exists 1, 0, 0, 2. vm_compute. discriminate. Qed.

Lemma take_lf_repeat k r : take_lf (repeat LF k ++ r) = (k + take_lf r)%nat.
Proof.
  induction k as [|k IH]; [reflexivity|]. cbn [repeat app take_lf]. rewrite is_lf_LF, IH. reflexivity.
Qed.

Lemma trailing_lfs_app buf k : trailing_lfs (buf ++ repeat LF k) = trailing_lfs buf + N.of_nat k.
Proof. unfold trailing_lfs. rewrite rev_app_distr, rev_repeat, take_lf_repeat. lia. Qed.

Lemma push_vspace_bounds_lemma lo hi buf n : lo <= hi ->
  let out := push_vertical_spaces lo hi buf n in
  (lo + 1 <= trailing_lfs out /\ trailing_lfs out <= hi + 1) \/ (hi + 1 < trailing_lfs buf /\ out = buf).
Proof.
  intros Hle. cbv zeta. unfold push_vertical_spaces. rewrite trailing_lfs_app, N2Nat.id.
  destruct (clamp_bounds_lemma lo hi (trailing_lfs buf) n Hle) as [H|[H1 H2]]; [left; exact H|].
  right. split; [exact H1|]. rewrite H2. apply app_nil_r.
Qed.

Lemma push_vspace_idem_lemma lo hi buf n : lo <= hi ->
  push_vertical_spaces lo hi (push_vertical_spaces lo hi buf n) 0 = push_vertical_spaces lo hi buf n.
Proof.
  intros Hle. unfold push_vertical_spaces at 1. unfold push_vertical_spaces at 2.
  rewrite trailing_lfs_app, N2Nat.id, clamp_idem_lemma by exact Hle. apply app_nil_r.
Qed.

Lemma indent_fast_eq offset num_chars :
  offset <= 1 -> num_chars + offset <= INDENT_BUFFER_LEN ->
  indent_fast offset num_chars = Some (indent_slow offset 0 num_chars).
Proof.
  unfold INDENT_BUFFER_LEN. intros Ho Hn. unfold indent_fast, indent_slow, INDENT_BUFFER.
  destruct (N.leb_spec offset (num_chars + 1)) as [_|H]; [|lia].
  replace (N.to_nat (num_chars + 1)) with (S (N.to_nat num_chars)) by lia.
  cbn [firstn]. rewrite firstn_repeat by lia. f_equal.
  assert (Hc : offset = 0 \/ offset = 1) by lia. destruct Hc as [-> | ->]; reflexivity.
Qed.

(* the choice between the two paths in to_string_inner makes no difference *)
Lemma fast_or_slow offset num_tabs num_spaces : offset <= 1 ->
  (if (num_tabs =? 0) && (num_tabs + num_spaces + offset <=? INDENT_BUFFER_LEN)
   then indent_fast offset (num_tabs + num_spaces)
   else Some (indent_slow offset num_tabs num_spaces)) = Some (indent_slow offset num_tabs num_spaces).
Proof.
  intros Ho. destruct (N.eqb_spec num_tabs 0) as [->|]; [|reflexivity].
  destruct (N.leb_spec (0 + num_spaces + offset) INDENT_BUFFER_LEN); [|reflexivity].
  apply indent_fast_eq; assumption.
Qed.

(* fast path = slow path: with the buffer fast path removed the function is
   indent_slow on the same numbers *)
Lemma fast_path_eq_lemma hard_tabs tab_spaces block align offset :
  offset <= 1 -> (hard_tabs = true -> 0 < tab_spaces) ->
  indent_string hard_tabs tab_spaces block align offset =
  Some (indent_slow offset (if hard_tabs then block / tab_spaces else 0)
                           (if hard_tabs then align else block + align)).
Proof.
  intros Ho Hts. unfold indent_string, to_string_inner, checked_div, indent_width.
  cbn [block_indent alignment]. destruct hard_tabs; [|apply fast_or_slow; exact Ho].
  destruct (N.eqb_spec tab_spaces 0) as [E|E]; [specialize (Hts eq_refl); lia|].
  apply fast_or_slow; exact Ho.
Qed.

Lemma indent_shape_lemma hard_tabs tab_spaces block align offset :
  offset <= 1 -> (hard_tabs = true -> 0 < tab_spaces) ->
  indent_string hard_tabs tab_spaces block align offset =
  Some ((if offset =? 0 then [LF] else [])
        ++ (if hard_tabs
            then repeat TAB (N.to_nat (block / tab_spaces)) ++ repeat SP (N.to_nat align)
            else repeat SP (N.to_nat (block + align)))).
Proof.
  intros Ho Hts. rewrite fast_path_eq_lemma by assumption. unfold indent_slow.
  destruct hard_tabs; reflexivity.
Qed.

Lemma fast_path_offset2_refuted_lemma : exists hard_tabs tab_spaces block align offset,
  0 < tab_spaces /\
  indent_string hard_tabs tab_spaces block align offset <>
  Some (indent_slow offset (if hard_tabs then block / tab_spaces else 0)
                           (if hard_tabs then align else block + align)).
Proof. exists false, 4, 4, 0, 2. split; [reflexivity|]. vm_compute. discriminate. Qed.

Lemma indent_string_div0_lemma block align offset : indent_string true 0 block align offset = None.
Proof. reflexivity. Qed.

Lemma from_width_roundtrip_lemma hard_tabs tab_spaces w : 0 < tab_spaces ->
  exists i, from_width hard_tabs tab_spaces w = Some i /\ indent_width i = w
            /\ (hard_tabs = true -> (block_indent i) mod tab_spaces = 0 /\ alignment i < tab_spaces).
Proof.
  intros Hts. unfold from_width, checked_div. destruct hard_tabs.
  - destruct (N.eqb_spec tab_spaces 0) as [E|E]; [lia|].
    eexists. split; [reflexivity|]. unfold indent_width. cbn [block_indent alignment].
    split; [symmetry; apply N.div_mod; exact E|].
    intros _. split; [rewrite N.mul_comm; apply N.mod_mul; exact E|].
    apply N.mod_lt. exact E.
  - eexists. split; [reflexivity|]. unfold indent_width. cbn [block_indent alignment].
    split; [lia|discriminate].
Qed.

Lemma from_width_div0_lemma w : from_width true 0 w = None.
Proof. reflexivity. Qed.

Lemma block_unindent_total_lemma tab_spaces i :
  exists i', indent_block_unindent tab_spaces i = Some i' /\ indent_width i' <= indent_width i.
Proof.
  unfold indent_block_unindent, checked_sub, indent_width.
  destruct (N.ltb_spec (block_indent i) tab_spaces) as [H|H].
  - eexists. split; [reflexivity|]. cbn [block_indent alignment]. lia.
  - destruct (N.leb_spec tab_spaces (block_indent i)) as [H'|H']; [|lia].
    eexists. split; [reflexivity|]. cbn [block_indent alignment]. lia.
Qed.

Lemma block_unindent_indent_lemma tab_spaces i :
  indent_block_unindent tab_spaces (indent_block_indent tab_spaces i) = Some i.
Proof.
  unfold indent_block_unindent, indent_block_indent, checked_sub. cbn [block_indent alignment].
  destruct (N.ltb_spec (block_indent i + tab_spaces) tab_spaces) as [H|H]; [lia|].
  destruct (N.leb_spec tab_spaces (block_indent i + tab_spaces)) as [H'|H']; [|lia].
  rewrite N.add_sub. destruct i; reflexivity.
Qed.

Lemma visual_width_app ts a b : visual_width ts (a ++ b) = visual_width ts a + visual_width ts b.
Proof.
  induction a as [|c a IH]; [reflexivity|]. cbn [app]. unfold visual_width in *. cbn [fold_right].
  rewrite IH. lia.
Qed.
Lemma visual_width_repeat ts c n :
  visual_width ts (repeat c n) = (if c =? TAB then ts else 1) * N.of_nat n.
Proof.
  induction n as [|n IH]; [cbn; lia|]. unfold visual_width in *. cbn [repeat fold_right].
  rewrite IH. lia.
Qed.

Lemma indent_visual_width_lemma hard_tabs tab_spaces block align :
  0 < tab_spaces -> (hard_tabs = true -> block mod tab_spaces = 0) ->
  exists s, indent_string hard_tabs tab_spaces block align 1 = Some s /\
            visual_width tab_spaces s = block + align.
Proof.
  intros Hts Hm. rewrite indent_shape_lemma; [|lia|intros _; exact Hts].
  eexists. split; [reflexivity|]. change (1 =? 0) with false. cbn [app].
  destruct hard_tabs; rewrite ?visual_width_app, !visual_width_repeat, !N2Nat.id.
  - change (TAB =? TAB) with true. change (SP =? TAB) with false. cbv iota.
    pose proof (N.div_mod block tab_spaces) as Hd. rewrite (Hm eq_refl) in Hd. lia.
  - change (SP =? TAB) with false. cbv iota. lia.
Qed.

Lemma trim_end_snoc t c : trim_end (t ++ [c]) = if is_whitespace c then trim_end t else t ++ [c].
Proof.
  unfold trim_end. rewrite rev_unit. cbn [drop_ws]. destruct (is_whitespace c); [reflexivity|].
  cbn [rev]. rewrite rev_involutive. reflexivity.
Qed.

Lemma trim_end_all_ws t : all_ws t -> trim_end t = [].
Proof.
  induction t as [|c t IH] using rev_ind; [reflexivity|]. intros [Ht Hc]%Forall_app.
  rewrite trim_end_snoc, (Forall_inv Hc). exact (IH Ht).
Qed.

Lemma trim_end_nonws pre c m : is_whitespace c = false ->
  trim_end (pre ++ c :: m) = pre ++ c :: trim_end m.
Proof.
  intros Hc. induction m as [|x m IH] using rev_ind.
  - rewrite trim_end_snoc, Hc. reflexivity.
  - rewrite app_comm_cons, app_assoc, !trim_end_snoc, IH.
    destruct (is_whitespace x); [reflexivity|]. rewrite <- app_assoc. reflexivity.
Qed.

(* the loop of remove_trailing_white_spaces, as a function of the pending space_buffer and the rest
   of the stream *)
Fixpoint rt (sp : text) (s : list (kind * char)) : text :=
  match s with
  | [] => []
  | (k, c) :: s' =>
      if is_lf c then (if kind_is_instring k then sp else []) ++ LF :: rt [] s'
      else if is_whitespace c then rt (sp ++ [c]) s'
      else sp ++ c :: rt [] s'
  end.

Lemma rtws_fold s b sp : fst (fold_left rtws_step s (b, sp)) = b ++ rt sp s.
Proof.
  revert b sp; induction s as [|[k c] s IH]; intros b sp.
  - cbn. rewrite app_nil_r. reflexivity.
  - cbn [fold_left rtws_step rt]. destruct (is_lf c).
    + rewrite IH. destruct (kind_is_instring k); rewrite <- ?app_assoc; reflexivity.
    + destruct (is_whitespace c).
      * apply IH.
      * rewrite IH. rewrite <- !app_assoc. reflexivity.
Qed.

Lemma rtws_rt s : remove_trailing_white_spaces s = rt [] s.
Proof. unfold remove_trailing_white_spaces. rewrite rtws_fold. reflexivity. Qed.

(* the state after a stretch without LF: the buffer has grown by the stretch less its
   trailing whitespace, and that whitespace is what space_buffer holds *)
Lemma rtws_stretch l : no_lf_stream l ->
  exists sp, fold_left rtws_step l ([], []) = (trim_end (map snd l), sp)
             /\ trim_end (map snd l) ++ sp = map snd l.
Proof.
  induction l as [|[k c] l IH] using rev_ind; intros Hl.
  - exists []. split; reflexivity.
  - apply Forall_app in Hl. destruct Hl as [Hl Hc]. apply Forall_inv in Hc. cbn [snd] in Hc.
    destruct (IH Hl) as (sp & E1 & E2).
    rewrite fold_left_app, E1, map_app. cbn [fold_left rtws_step map snd]. rewrite trim_end_snoc.
    set (T := trim_end (map snd l)) in *.
    case_lf c; [contradiction|]. destruct (is_whitespace c).
    + exists (sp ++ [c]). split; [reflexivity|]. rewrite app_assoc, E2. reflexivity.
    + exists []. rewrite app_nil_r, <- E2, <- app_assoc. split; reflexivity.
Qed.

Lemma rtws_line_lemma l k rest : no_lf_stream l ->
  remove_trailing_white_spaces (l ++ (k, LF) :: rest) =
  (if kind_is_instring k then map snd l else trim_end (map snd l))
  ++ LF :: remove_trailing_white_spaces rest.
Proof.
  intros Hl. unfold remove_trailing_white_spaces at 1. rewrite fold_left_app.
  destruct (rtws_stretch l Hl) as (sp & -> & E). cbn [fold_left rtws_step app]. rewrite is_lf_LF.
  rewrite rtws_fold, <- rtws_rt, E, <- app_assoc. reflexivity.
Qed.

Lemma rtws_last_lemma l : no_lf_stream l ->
  remove_trailing_white_spaces l = trim_end (map snd l).
Proof.
  intros Hl. unfold remove_trailing_white_spaces.
  destruct (rtws_stretch l Hl) as (sp & -> & _). reflexivity.
Qed.

(* whitespace other than LF: what space_buffer holds, and what lies between the start of a line and the
   scan position of skip_el *)
Definition wsc (sp : text) : Prop := Forall (fun c => is_lf c = false /\ is_whitespace c = true) sp.

Lemma wsc_nolf w : wsc w -> ~ In LF w.
Proof. unfold wsc. rewrite Forall_forall. intros H Hi. destruct (H _ Hi) as [E _]. discriminate E. Qed.

Lemma wsc_all_ws w : wsc w -> all_ws w.
Proof. apply Forall_impl. intros c [_ H]. exact H. Qed.

Lemma wsc_snoc w c : wsc w -> c <> LF -> is_whitespace c = true -> wsc (w ++ [c]).
Proof.
  intros Hw Hc Hws. apply Forall_app. split; [exact Hw|].
  constructor; [split; [apply is_lf_false; exact Hc|exact Hws]|constructor].
Qed.

Lemma ntw_cons c t : (head_lf t = true -> is_whitespace c = true -> c = LF) ->
  no_trailing_ws t -> no_trailing_ws (c :: t).
Proof.
  intros Hc Ht [|i] x Hi Hj Hw; [|exact (Ht i x Hi Hj Hw)].
  injection Hi as <-. apply Hc; [apply head_lf_nth; exact Hj|exact Hw].
Qed.

(* a pending space_buffer is flushed only in front of a char that is no whitespace *)
Lemma ntw_flush sp c r : wsc sp -> is_whitespace c = false ->
  no_trailing_ws r -> no_trailing_ws (sp ++ c :: r).
Proof.
  intros Hsp Hc Hr. pose proof (nonws_not_lf c Hc) as Hl.
  induction Hsp as [|x sp [Hx _] Hsp' IH]; cbn [app].
  - apply ntw_cons; [|exact Hr]. intros _ Hw. congruence.
  - apply ntw_cons; [|exact IH]. intros Hh. destruct Hsp' as [|y sp' [Hy _] _]; cbn in Hh; congruence.
Qed.

(* when no LF is InString the kinds do not matter: all can be taken to be Normal *)
Lemma rt_normal s : (forall k, In (k, LF) s -> kind_is_instring k = false) ->
  forall sp, rt sp s = rt sp (map (pair Normal) (map snd s)).
Proof.
  induction s as [|[k c] s IH]; intros Hg sp; [reflexivity|].
  specialize (IH (fun k0 Hi => Hg k0 (or_intror Hi))). cbn [map snd rt]. case_lf c.
  - rewrite (Hg k (or_introl eq_refl)), IH. reflexivity.
  - destruct (is_whitespace c); rewrite IH; reflexivity.
Qed.

Lemma ntw_rt t : forall sp, wsc sp -> no_trailing_ws (rt sp (map (pair Normal) t)).
Proof.
  induction t as [|c t IH]; intros sp Hsp; [intros [|i] x Hi; discriminate Hi|].
  cbn [map rt kind_is_instring]. case_lf c.
  - apply ntw_cons; [reflexivity|]. apply IH. constructor.
  - destruct (is_whitespace c) eqn:Hw.
    + apply IH, wsc_snoc; assumption.
    + apply ntw_flush; [exact Hsp|exact Hw|]. apply IH. constructor.
Qed.

Lemma remove_trailing_ws_ok_lemma s :
  (forall k, In (k, LF) s -> kind_is_instring k = false) ->
  no_trailing_ws (remove_trailing_white_spaces s).
Proof. intros Hg. rewrite rtws_rt, (rt_normal s Hg). apply ntw_rt. constructor. Qed.

(* rt on (kind, char), keeping the kinds: the loop of rtws_kinded *)
Fixpoint rtk (sp : list (kind * char)) (s : list (kind * char)) : list (kind * char) :=
  match s with
  | [] => []
  | (k, c) :: s' =>
      if is_lf c then (if kind_is_instring k then sp else []) ++ (k, c) :: rtk [] s'
      else if is_whitespace c then rtk (sp ++ [(k, c)]) s'
      else sp ++ (k, c) :: rtk [] s'
  end.

Lemma rtk_fold s b sp : fst (fold_left rtws_step_k s (b, sp)) = b ++ rtk sp s.
Proof.
  revert b sp; induction s as [|[k c] s IH]; intros b sp.
  - cbn. rewrite app_nil_r. reflexivity.
  - cbn [fold_left rtws_step_k rtk]. destruct (is_lf c).
    + rewrite IH. destruct (kind_is_instring k); rewrite <- ?app_assoc; reflexivity.
    + destruct (is_whitespace c).
      * apply IH.
      * rewrite IH. rewrite <- !app_assoc. reflexivity.
Qed.

Lemma rtws_kinded_rtk s : rtws_kinded s = rtk [] s.
Proof. unfold rtws_kinded. rewrite rtk_fold. reflexivity. Qed.

Lemma rtk_erase sp s : map snd (rtk sp s) = rt (map snd sp) s.
Proof.
  revert sp; induction s as [|[k c] s IH]; intros sp; [reflexivity|].
  cbn [rtk rt]. case_lf c.
  - rewrite map_app. cbn [map snd]. rewrite IH. destruct (kind_is_instring k); reflexivity.
  - destruct (is_whitespace c).
    + rewrite IH, map_app. reflexivity.
    + rewrite map_app. cbn [map snd]. rewrite IH. reflexivity.
Qed.

Lemma rtws_kinded_erase s : map snd (rtws_kinded s) = remove_trailing_white_spaces s.
Proof. rewrite rtws_kinded_rtk, rtws_rt. apply (rtk_erase [] s). Qed.

(* wsc on (kind, char) *)
Definition wsk_nolf (sp : list (kind * char)) : Prop :=
  Forall (fun p => is_lf (snd p) = false /\ is_whitespace (snd p) = true) sp.

Lemma rtk_absorb sp : wsk_nolf sp -> forall sp0 x, rtk sp0 (sp ++ x) = rtk (sp0 ++ sp) x.
Proof.
  induction 1 as [|[k c] sp [Hl Hw] _ IH]; intros sp0 x.
  - rewrite app_nil_r. reflexivity.
  - cbn [snd] in Hl, Hw. cbn [app rtk]. rewrite Hl, Hw. rewrite IH, <- app_assoc. reflexivity.
Qed.

Lemma rtk_idem s : forall sp, wsk_nolf sp -> rtk [] (rtk sp s) = rtk sp s.
Proof.
  induction s as [|[k c] s IH]; intros sp Hsp; [reflexivity|].
  cbn [rtk]. destruct (is_lf c) eqn:Hl.
  - destruct (kind_is_instring k) eqn:Hk.
    + rewrite rtk_absorb by exact Hsp. cbn [app rtk]. rewrite Hl, Hk.
      rewrite IH by constructor. reflexivity.
    + cbn [app rtk]. rewrite Hl, Hk. cbn [app]. rewrite IH by constructor. reflexivity.
  - destruct (is_whitespace c) eqn:Hw.
    + apply IH. apply Forall_app. split; [exact Hsp|]. constructor; [|constructor]. cbn [snd]. auto.
    + rewrite rtk_absorb by exact Hsp. cbn [app rtk]. rewrite Hl, Hw.
      rewrite IH by constructor. reflexivity.
Qed.

Lemma rtws_kinded_idem s : rtws_kinded (rtws_kinded s) = rtws_kinded s.
Proof. rewrite !rtws_kinded_rtk. apply rtk_idem. constructor. Qed.

Lemma strip_trailing_ws_idem_kinded_lemma s :
  map snd (rtws_kinded s) = remove_trailing_white_spaces s /\
  rtws_kinded (rtws_kinded s) = rtws_kinded s.
Proof. split; [exact (rtws_kinded_erase s)|exact (rtws_kinded_idem s)]. Qed.

(* a second run over the output, every char classified as in the first, changes nothing *)
Lemma rtws_rtws_kinded s :
  remove_trailing_white_spaces (rtws_kinded s) = remove_trailing_white_spaces s.
Proof. rewrite <- !rtws_kinded_erase, rtws_kinded_idem. reflexivity. Qed.

(* on a stream tagged Normal throughout, the kinded run is the char-level run, tagged *)
Lemma rtk_normal t : forall sp,
  rtk (map (pair Normal) sp) (map (pair Normal) t) = map (pair Normal) (rt sp (map (pair Normal) t)).
Proof.
  induction t as [|c t IH]; intros sp; [reflexivity|]. cbn [map rtk rt kind_is_instring].
  pose proof (IH []) as IH0. cbn [map] in IH0.
  case_lf c; [|destruct (is_whitespace c)].
  - rewrite IH0. reflexivity.
  - rewrite <- IH, map_app. reflexivity.
  - rewrite IH0, map_app. reflexivity.
Qed.

Lemma rtws_idem_nostring_lemma s (reclass : text -> list (kind * char)) :
  (forall t, map snd (reclass t) = t) ->
  (forall t k, In (k, LF) (reclass t) -> kind_is_instring k = false) ->
  (forall k, In (k, LF) s -> kind_is_instring k = false) ->
  remove_trailing_white_spaces (reclass (remove_trailing_white_spaces s)) = remove_trailing_white_spaces s.
Proof.
  intros Hm Hr Hs. rewrite !rtws_rt, (rt_normal _ (Hr _)), Hm, (rt_normal s Hs).
  (* both runs are now over Normal streams; the first one's output, tagged, is a kinded run *)
  rewrite <- (rtk_normal _ []), <- !rtws_rt. cbn [map]. rewrite <- rtws_kinded_rtk.
  apply rtws_rtws_kinded.
Qed.

(* r is what skip_empty_lines may return for start *)
Definition skip_spec (start r : text) : Prop :=
  exists pre, start = pre ++ r /\ all_ws pre
              /\ (pre = [] \/ exists p', pre = p' ++ [LF])
              /\ skip_stop r.

Lemma skip_spec_refl r : skip_stop r -> skip_spec r r.
Proof. intros H. exists []. split; [reflexivity|]. split; [constructor|]. split; [left; reflexivity|exact H]. Qed.

Lemma skip_spec_line w start r : wsc w -> skip_spec start r -> skip_spec (w ++ LF :: start) r.
Proof.
  intros Hw (pre & -> & Hp & Hl & Hs). exists (w ++ LF :: pre).
  split; [rewrite <- app_assoc; reflexivity|].
  split; [apply Forall_app; split; [exact (wsc_all_ws w Hw)|constructor; [reflexivity|exact Hp]]|].
  split; [right|exact Hs]. destruct Hl as [->|(p' & ->)].
  - exists w. reflexivity.
  - exists (w ++ LF :: p'). rewrite <- app_assoc. reflexivity.
Qed.

Lemma skip_el_spec t : forall w, wsc w -> skip_spec (w ++ t) (skip_el (w ++ t) t).
Proof.
  induction t as [|c t IH]; intros w Hw; cbn [skip_el].
  - apply skip_spec_refl. left. rewrite app_nil_r. exact (wsc_nolf w Hw).
  - case_lf c; [apply skip_spec_line; [exact Hw|exact (IH [] (Forall_nil _))]|].
    destruct (is_whitespace c) eqn:Hws.
    + rewrite <- snoc_app. apply IH, wsc_snoc; assumption.
    + apply skip_spec_refl. right. exists w, c, t.
      split; [reflexivity|]. split; [exact (wsc_nolf w Hw)|exact Hws].
Qed.

Lemma skip_empty_lines_spec_lemma t :
  exists pre, t = pre ++ skip_empty_lines t /\ all_ws pre
              /\ (pre = [] \/ exists p', pre = p' ++ [LF])
              /\ skip_stop (skip_empty_lines t).
Proof. exact (skip_el_spec t [] (Forall_nil _)). Qed.

Lemma skip_el_fix s l r : ~ In LF l -> skip_el s r = s -> skip_el s (l ++ r) = s.
Proof.
  intros Hn%nolf_forall Hr. induction Hn as [|c l Hc _ IH]; [exact Hr|]. cbn [app skip_el].
  rewrite Hc. destruct (is_whitespace c); [exact IH|reflexivity].
Qed.

Lemma skip_stop_fix r : skip_stop r -> skip_empty_lines r = r.
Proof.
  unfold skip_empty_lines. intros [Hn|(l & c & r' & -> & Hn & Hc)].
  - pose proof (skip_el_fix r r [] Hn eq_refl) as E. rewrite app_nil_r in E. exact E.
  - apply skip_el_fix; [exact Hn|]. cbn [skip_el]. rewrite (nonws_not_lf c Hc), Hc. reflexivity.
Qed.

Lemma skip_empty_lines_idem_lemma t : skip_empty_lines (skip_empty_lines t) = skip_empty_lines t.
Proof.
  destruct (skip_empty_lines_spec_lemma t) as (_ & _ & _ & _ & Hs). apply skip_stop_fix. exact Hs.
Qed.

Lemma skipn_suffix (pre r t : text) : t = pre ++ r -> r = skipn (length t - length r) t.
Proof.
  intros ->. rewrite app_length, Nat.add_sub, skipn_app, skipn_all, Nat.sub_diag. reflexivity.
Qed.

Lemma skip_empty_lines_pos_lemma t :
  skip_empty_lines t = skipn (N.to_nat (skip_empty_lines_pos t)) t.
Proof.
  destruct (skip_empty_lines_spec_lemma t) as (pre & E & _). unfold skip_empty_lines_pos.
  rewrite Nat2N.id. exact (skipn_suffix pre _ t E).
Qed.

(* first_line_nonblank as a boolean test *)
Fixpoint flnb (t : text) : bool :=
  match t with
  | [] => false
  | c :: t' => if is_lf c then false else if is_whitespace c then flnb t' else true
  end.

Lemma flnb_spec t : flnb t = true <-> first_line_nonblank t.
Proof.
  split.
  - induction t as [|c t IH]; [discriminate|]. cbn [flnb].
    case_lf c; [discriminate|]. destruct (is_whitespace c) eqn:Hw.
    + intros H. destruct (IH H) as (l & x & r & -> & Hn & Hx).
      exists (c :: l), x, r. split; [reflexivity|]. split; [|exact Hx].
      intros [Hc|Hi]; [congruence|exact (Hn Hi)].
    + intros _. exists [], c, t. split; [reflexivity|]. split; [intros []|exact Hw].
  - intros (l & x & r & -> & Hn%nolf_forall & Hx). induction Hn as [|c l Hc _ IH].
    + cbn [app flnb]. rewrite (nonws_not_lf x Hx), Hx. reflexivity.
    + cbn [app flnb]. rewrite Hc. destruct (is_whitespace c); [exact IH|reflexivity].
Qed.

Lemma flnb_ws_prefix w t : ws_nolf w -> all_ws w -> flnb (w ++ t) = flnb t.
Proof.
  intros Hn Hw. induction Hn as [|x w Hx _ IH]; [reflexivity|].
  inversion Hw as [|? ? Hxw Hw']; subst. cbn [app flnb]. rewrite Hx, Hxw. exact (IH Hw').
Qed.
