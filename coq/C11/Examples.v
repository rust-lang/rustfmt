(* C11/Examples.v — non-vacuity: concrete values for the statements of
   Props.v, the unit tests of src/sort.rs, and the _refuted witnesses. *)
From Coq Require Import String Ascii Permutation Sorted.
From V Require Import Base.Text C11.Ord C11.Model C11.Lemmas C11.Run.
Open Scope string_scope.
Open Scope list_scope.
Open Scope N_scope.

(* ASCII string literal to text *)
Definition t (s : string) : text :=
  map (fun a => N.of_nat (nat_of_ascii a)) (list_ascii_of_string s).

(* sort.rs test_chunks *)
Example ex_chunks_x86_128 :
  chunks (t "x86_128") =
  [Str (t "x"); Number 86 0 (t "86"); Underscore; Number 128 0 (t "128")].
Proof. vm_compute. reflexivity. Qed.

Example ex_chunks_w005s09t :
  chunks (t "w005s09t") =
  [Str (t "w"); Number 5 2 (t "005"); Str (t "s"); Number 9 1 (t "09"); Str (t "t")].
Proof. vm_compute. reflexivity. Qed.

Example ex_chunks_underscores :
  chunks (t "_1v") = [Underscore; Number 1 0 (t "1"); Str (t "v")]
  /\ chunks (t "ZY_WX") = [Str (t "ZY"); Underscore; Str (t "WX")]
  /\ chunks (t "__") = [Underscore; Underscore].
Proof. vm_compute. repeat split. Qed.

(* U+0E59 THAI DIGIT NINE is not an ASCII digit: one Str chunk *)
Example ex_chunks_thai : chunks [120; 3673; 118] = [Str [120; 3673; 118]].
Proof. vm_compute. reflexivity. Qed.

(* usize::MAX still parses; usize::MAX + 1 ends the iteration, dropping the tail *)
Example ex_chunks_usize_max :
  chunks (t "a18446744073709551615b") =
  [Str (t "a"); Number 18446744073709551615 0 (t "18446744073709551615"); Str (t "b")].
Proof. vm_compute. reflexivity. Qed.
Example ex_chunks_overflow : chunks (t "a18446744073709551616b") = [Str (t "a")].
Proof. vm_compute. reflexivity. Qed.
(* leading zeros do not overflow *)
Example ex_chunks_long_zeros :
  chunks (t "a000000000000000000000000000001") =
  [Str (t "a"); Number 1 29 (t "000000000000000000000000000001")].
Proof. vm_compute. reflexivity. Qed.

(* version_sort: all three outcomes, the tie-break, both laws' premises *)
Example ex_vs_numeric : version_sort (t "x9") (t "x10") = Lt /\ version_sort (t "x10") (t "x9") = Gt
                        /\ cmp_text (t "x9") (t "x10") = Gt.
Proof. vm_compute. repeat split. Qed.
(* more leading zeros first, decided by the first difference only *)
Example ex_vs_zeros :
  version_sort (t "a001") (t "a01") = Lt /\ version_sort (t "a01") (t "a1") = Lt
  /\ version_sort (t "a001") (t "a1") = Lt
  /\ version_sort (t "w005s09t") (t "w5s009t") = Lt
  /\ version_sort (t "a01b2") (t "a1b1") = Gt.
Proof. vm_compute. repeat split. Qed.
Example ex_vs_underscore_first :
  version_sort (t "aaa_a") (t "aaaaa") = Lt /\ version_sort (t "foo") (t "foo_") = Lt
  /\ version_sort (t "_") (t "__") = Lt /\ version_sort (t "u_zzz") (t "u8") = Lt.
Proof. vm_compute. repeat split. Qed.
(* Str chunks above and below the digits *)
Example ex_vs_str_vs_number :
  version_sort (t "_!") (t "_1") = Lt /\ version_sort (t "_1") (t "_b") = Lt
  /\ version_sort (t "_!") (t "_b") = Lt /\ version_sort (t "a!") (t "a1") = Gt.
Proof. vm_compute. repeat split. Qed.
(* a transitivity instance with Lt premises, an Eq-congruence instance with an Eq premise *)
Example ex_vs_trans_premises :
  version_sort (t "v0") (t "v0s") = Lt /\ version_sort (t "v0s") (t "v00t") = Lt
  /\ version_sort (t "v0") (t "v00t") = Lt.
Proof. vm_compute. repeat split. Qed.
Example ex_vs_eq_cong_premise :
  version_sort ovf_a ovf_b = Eq /\ ovf_a <> ovf_b
  /\ version_sort ovf_a (t "a2") = Lt /\ version_sort ovf_b (t "a2") = Lt.
Proof.
  split; [vm_compute; reflexivity|]. split; [exact ovf_distinct|].
  vm_compute. split; reflexivity.
Qed.

(* sort.rs test_version_sort *)
Example ex_sort_edge : sort_names [t ""; t "b"; t "a"] = [t ""; t "a"; t "b"].
Proof. vm_compute. reflexivity. Qed.
Example ex_sort_numbers :
  sort_names (map t ["5"; "50"; "500"; "5_000"; "5_005"; "5_050"; "5_500"; "50_000"; "50_005";
                     "50_050"; "50_500"]%string)
  = map t ["5"; "5_000"; "5_005"; "5_050"; "5_500"; "50"; "50_000"; "50_005"; "50_050";
           "50_500"; "500"]%string.
Proof. vm_compute. reflexivity. Qed.
Example ex_sort_x86 :
  sort_names (map t ["X86_64"; "x86_64"; "X86_128"; "x86_128"]%string)
  = map t ["X86_64"; "X86_128"; "x86_64"; "x86_128"]%string.
Proof. vm_compute. reflexivity. Qed.
Example ex_sort_big :
  sort_names (map t
    ["x86_128"; "usize"; "uz"; "v000"; "v00"; "v0"; "v0s"; "v00t"; "v0u"; "v001"; "v01";
     "v1"; "v009"; "x87"; "zyxw"; "_ZYXW"; "_abcd"; "A2"; "ABCD"; "Z_YXW"; "ZY_XW"; "ZY_XW";
     "ZYXW"; "v09"; "v9"; "v010"; "v10"; "w005s09t"; "w5s009t"; "x64"; "x86"; "x86_32";
     "ua"; "x86_64"; "ZYXW_"; "a1"; "abcd"; "u_zzz"; "u8"; "u16"; "u32"; "u64"; "u128";
     "u256"]%string)
  = map t
    ["_ZYXW"; "_abcd"; "A2"; "ABCD"; "Z_YXW"; "ZY_XW"; "ZY_XW"; "ZYXW"; "ZYXW_"; "a1";
     "abcd"; "u_zzz"; "u8"; "u16"; "u32"; "u64"; "u128"; "u256"; "ua"; "usize"; "uz";
     "v000"; "v00"; "v0"; "v0s"; "v00t"; "v0u"; "v001"; "v01"; "v1"; "v009"; "v09"; "v9";
     "v010"; "v10"; "w005s09t"; "w5s009t"; "x64"; "x86"; "x86_32"; "x86_64"; "x86_128";
     "x87"; "zyxw"]%string.
Proof. vm_compute. reflexivity. Qed.

(* order-insensitivity: the hypotheses are satisfiable, the conclusion is not trivial *)
Definition names1 : list text := map t ["x10"; "a01"; "x9"; "a1"; "_b"; "a001"]%string.
Definition names2 : list text := map t ["a1"; "a001"; "_b"; "x9"; "x10"; "a01"]%string.

Example ex_names_fit : forallb digit_runs_fit names1 = true.
Proof. vm_compute. reflexivity. Qed.
Example ex_names_perm : Permutation names1 names2.
Proof.
  (* both are permutations of their common string-order sort *)
  eapply perm_trans; [apply (Ord.isort_perm cmp_text)|].
  apply Permutation_sym.
  eapply perm_trans; [apply (Ord.isort_perm cmp_text)|].
  assert (E : isort cmp_text names2 = isort cmp_text names1) by (vm_compute; reflexivity).
  rewrite E. apply Permutation_refl.
Qed.
Example ex_names_sorted_same :
  sort_names names1 = map t ["_b"; "a001"; "a01"; "a1"; "x9"; "x10"]%string
  /\ sort_names names2 = sort_names names1 /\ names1 <> sort_names names1.
Proof.
  split; [vm_compute; reflexivity|]. split; [vm_compute; reflexivity|].
  intros H. apply (f_equal (hd [])) in H. vm_compute in H. discriminate H.
Qed.
(* the instance of the partial theorem *)
Example ex_names_order_insensitive : sort_names names1 = sort_names names2.
Proof. exact (version_sort_order_insensitive_partial names1 names2 ex_names_perm ex_names_fit). Qed.

(* the refutation witnesses fail exactly the decidable hypothesis *)
Example ex_ovf_not_fit :
  digit_runs_fit ovf_a = false /\ chunks_cover ovf_a = false
  /\ chunks ovf_a = [Str (t "a")] /\ chunks ovf_b = [Str (t "a")].
Proof. vm_compute. repeat split. Qed.
(* even the bare prefix is ranked Equal to them *)
Example ex_ovf_prefix : version_sort (t "a") ovf_a = Eq /\ version_sort (t "") (t "18446744073709551616") = Eq.
Proof. vm_compute. split; reflexivity. Qed.
Example ex_ovf_both_orders_kept :
  sort_names [ovf_a; ovf_b] = [ovf_a; ovf_b] /\ sort_names [ovf_b; ovf_a] = [ovf_b; ovf_a].
Proof. vm_compute. split; reflexivity. Qed.

(* stability is visible: Equal names keep their input order among other names *)
Example ex_stable :
  sort_names [t "b"; ovf_b; t "A"; ovf_a] = [t "A"; ovf_b; ovf_a; t "b"].
Proof. vm_compute. reflexivity. Qed.

(* hypotheses of any_stable_sort_agrees hold of a concrete non-trivial output *)
Example ex_any_stable_sort_hyps :
  let l := [t "b"; ovf_b; t "A"; ovf_a] in
  let out := [t "A"; ovf_b; ovf_a; t "b"] in
  Permutation l out /\ SortedBy version_sort out /\ StableWrt version_sort l out.
Proof.
  cbv zeta. rewrite <- ex_stable. apply sort_names_is_sort_by.
Qed.

Definition md (n : string) : item := MkItem IMod (t n) None.
Definition ec (n : string) : item := MkItem IExternCrate (t n) None.
(* extern crate orig as alias; *)
Definition eca (orig alias : string) : item := MkItem IExternCrate (t alias) (Some (t orig)).

Example ex_items_mod :
  compare_items SE2021 (md "x9") (md "x10") = Some Gt
  /\ compare_items SE2024 (md "x9") (md "x10") = Some Lt
  /\ compare_items SE2015 (md "a") (md "a") = Some Eq.
Proof. vm_compute. repeat split. Qed.
Example ex_items_extern :
  compare_items SE2024 (ec "foo") (eca "foo" "bar") = Some Lt
  /\ compare_items SE2024 (eca "foo" "bar") (ec "foo") = Some Gt
  /\ compare_items SE2024 (eca "foo" "b9") (eca "foo" "b10") = Some Lt
  /\ compare_items SE2021 (eca "foo" "b9") (eca "foo" "b10") = Some Gt
  /\ compare_items SE2024 (eca "zzz" "a") (ec "b") = Some Gt
  /\ compare_items SE2024 (ec "foo") (ec "foo") = Some Eq.
Proof. vm_compute. repeat split. Qed.
Example ex_items_unreachable :
  compare_items SE2024 (md "a") (ec "a") = None
  /\ compare_items SE2024 (MkItem IOther [] None) (MkItem IOther [] None) = None
  /\ reorderable_pair (md "a") (ec "a") = false.
Proof. vm_compute. repeat split. Qed.

Definition items1 : list item := [ec "x10"; eca "x9" "q"; ec "x9"; eca "a" "z2"; eca "a" "z10"].
Definition items2 : list item := [eca "a" "z10"; ec "x9"; ec "x10"; eca "a" "z2"; eca "x9" "q"].
Example ex_items_hyps :
  forallb item_wf items1 = true /\ forallb item_names_fit items1 = true.
Proof. vm_compute. split; reflexivity. Qed.
Example ex_items_sorted :
  sort_items SE2024 items1 = [eca "a" "z2"; eca "a" "z10"; ec "x9"; eca "x9" "q"; ec "x10"]
  /\ sort_items SE2024 items2 = sort_items SE2024 items1
  /\ sort_items SE2021 items1 = [eca "a" "z10"; eca "a" "z2"; ec "x10"; ec "x9"; eca "x9" "q"]
  /\ sort_items SE2021 items2 = sort_items SE2021 items1.
Proof. vm_compute. repeat split. Qed.

(* the items witness: both orders are kept under 2024, not under 2021 *)
Example ex_items_ovf :
  sort_items SE2024 [ovf_item_b; ovf_item_a] = [ovf_item_b; ovf_item_a]
  /\ sort_items SE2024 [ovf_item_a; ovf_item_b] = [ovf_item_a; ovf_item_b]
  /\ sort_items SE2021 [ovf_item_b; ovf_item_a] = [ovf_item_a; ovf_item_b]
  /\ item_names_fit ovf_item_a = false.
Proof. vm_compute. repeat split. Qed.

Example ex_run :
  run_vs (t "x9") (t "x10") = 0 /\ run_vs (t "a") (t "a") = 1 /\ run_vs (t "b") (t "a") = 2
  /\ run_chunks (t "a_01") = [(1, 0, 0, t "a"); (0, 0, 0, t "_"); (2, 1, 1, t "01")]
  /\ run_items 2024 (1, t "foo", None) (1, t "bar", Some (t "foo")) = 0
  /\ run_items 2024 (0, t "m", None) (1, t "m", None) = 3.
Proof. vm_compute. repeat split. Qed.
