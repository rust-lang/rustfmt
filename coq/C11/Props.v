(* C11/Props.v — the comparator core of property C11: the comparisons rustfmt
   sorts `mod` / `extern crate` declarations (and, through version_sort, import
   names) with are consistent total preorders, for the string order of style
   editions up to 2021 and the version sort of 2024; what sorting with them
   yields; and when the result is independent of the input order. *)
From Coq Require Import Permutation Sorted.
From V Require Import Base.Text C11.Ord C11.Model C11.Lemmas.

(* the stable insertion sort returns exactly the input's elements *)
Theorem isort_perm : forall (A : Type) (cmp : A -> A -> comparison) (l : list A),
  Permutation l (isort cmp l).
Proof. exact @Ord.isort_perm. Qed.
Print Assumptions isort_perm.

(* its output is sorted: no adjacent pair compares Greater *)
Theorem isort_sorted : forall (A : Type) (cmp : A -> A -> comparison),
  TotalPreorder cmp -> forall l, SortedBy cmp (isort cmp l).
Proof. exact @Ord.isort_sorted. Qed.
Print Assumptions isort_sorted.

(* it is stable: elements that compare Equal keep their relative order *)
Theorem isort_stable : forall (A : Type) (cmp : A -> A -> comparison),
  TotalPreorder cmp ->
  forall l x, filter (fun y => is_eq (cmp x y)) (isort cmp l) = filter (fun y => is_eq (cmp x y)) l.
Proof. exact @Ord.isort_stable. Qed.
Print Assumptions isort_stable.

(* a sorted input is left as it is *)
Theorem sorted_isort_id : forall (A : Type) (cmp : A -> A -> comparison) (l : list A),
  SortedBy cmp l -> isort cmp l = l.
Proof. exact @Ord.sorted_isort_id. Qed.
Print Assumptions sorted_isort_id.

(* order-insensitivity: when no two distinct elements compare Equal, every permutation sorts to the same list *)
Theorem sort_unique : forall (A : Type) (cmp : A -> A -> comparison),
  TotalPreorder cmp -> forall l1 l2,
  Permutation l1 l2 ->
  (forall x y, In x l1 -> In y l1 -> cmp x y = Eq -> x = y) ->
  isort cmp l1 = isort cmp l2.
Proof. exact @Ord.sort_unique. Qed.
Print Assumptions sort_unique.

(* algorithm-independence: the output of any stable sort (slice::sort_by) is isort's *)
Theorem any_stable_sort_agrees : forall (A : Type) (cmp : A -> A -> comparison),
  TotalPreorder cmp -> forall l out,
  Permutation l out -> SortedBy cmp out -> StableWrt cmp l out -> out = isort cmp l.
Proof. exact @Ord.any_stable_sort_agrees. Qed.
Print Assumptions any_stable_sort_agrees.

(* VersionChunkIter terminates: the chunk list does not depend on the fuel once it covers the identifier *)
Theorem chunks_total : forall n t, (length t <= n)%nat -> chunks_fuel n t = chunks t.
Proof. exact Lemmas.chunks_total. Qed.
Print Assumptions chunks_total.

(* chunks is the iteration of next until its first None *)
Theorem chunks_unfold : forall t,
  chunks t = match vc_next t with None => [] | Some (ch, rest) => ch :: chunks rest end.
Proof. exact Lemmas.chunks_unfold. Qed.
Print Assumptions chunks_unfold.

(* str::cmp, the ordering of style editions up to 2021 *)
Theorem str_total_preorder : TotalPreorder cmp_text.
Proof. exact Lemmas.str_total_preorder. Qed.
Print Assumptions str_total_preorder.

(* version_sort, the ordering of style edition 2024: all four laws, for all identifiers *)
Theorem vs_total_preorder : TotalPreorder version_sort.
Proof. exact Lemmas.vs_total_preorder. Qed.
Print Assumptions vs_total_preorder.

(* compare_items (through its total extension items_cmp), every style edition *)
Theorem items_total_preorder : forall e, TotalPreorder (items_cmp e).
Proof. exact Lemmas.items_total_preorder. Qed.
Print Assumptions items_total_preorder.

(* compare_items does not hit unreachable!() exactly on two mod or two extern crate items, and is items_cmp there *)
Theorem compare_items_defined : forall e a b,
  reorderable_pair a b = true <-> compare_items e a b = Some (items_cmp e a b).
Proof. exact Lemmas.compare_items_defined. Qed.
Print Assumptions compare_items_defined.

(* the four laws stated on compare_items itself, over the items of one reorderable kind *)
Theorem compare_items_laws : forall e k,
  k <> IOther ->
  (forall a, it_kind a = k -> compare_items e a a = Some Eq)
  /\ (forall a b ca, it_kind a = k -> it_kind b = k ->
        compare_items e a b = Some ca -> compare_items e b a = Some (CompOpp ca))
  /\ (forall a b c, it_kind a = k -> it_kind b = k -> it_kind c = k ->
        compare_items e a b = Some Lt -> compare_items e b c = Some Lt ->
        compare_items e a c = Some Lt)
  /\ (forall a b c, it_kind a = k -> it_kind b = k -> it_kind c = k ->
        compare_items e a b = Some Eq -> compare_items e a c = compare_items e b c).
Proof. exact Lemmas.compare_items_laws. Qed.
Print Assumptions compare_items_laws.

(* version_sort ranks two identifiers Equal exactly when the iterator yields the same chunks for both *)
Theorem vs_eq_iff : forall a b, version_sort a b = Eq <-> chunks a = chunks b.
Proof. exact Lemmas.vs_eq_iff. Qed.
Print Assumptions vs_eq_iff.

(* REFUTED: Equal does not mean identical; a numeric chunk of 2^64 or more ends the iteration, the rest is ignored *)
Theorem vs_eq_identity_refuted : exists a b, a <> b /\ version_sort a b = Eq.
Proof. exact Lemmas.vs_eq_identity_refuted. Qed.
Print Assumptions vs_eq_identity_refuted.

(* partial: Equal means identical when every digit run is below 2^64 (missing: identifiers with larger numbers) *)
Theorem vs_eq_identity_partial : forall a b,
  digit_runs_fit a = true -> digit_runs_fit b = true -> version_sort a b = Eq -> a = b.
Proof. exact Lemmas.vs_eq_identity_partial. Qed.
Print Assumptions vs_eq_identity_partial.

(* digit_runs_fit is exactly what makes the iterator read the whole identifier *)
Theorem digit_runs_fit_cover : forall t, digit_runs_fit t = true -> chunks_cover t = true.
Proof. exact Lemmas.digit_runs_fit_cover. Qed.
Print Assumptions digit_runs_fit_cover.

(* partial: items ranked Equal are identical under editions up to 2021, or when their names fit (missing: 2024 with larger numbers) *)
Theorem items_eq_identity_partial : forall e a b,
  (se_le_2021 e = true \/ (item_names_fit a = true /\ item_names_fit b = true)) ->
  item_wf a = true -> item_wf b = true -> items_cmp e a b = Eq -> a = b.
Proof. exact Lemmas.items_eq_identity_partial. Qed.
Print Assumptions items_eq_identity_partial.

(* names.sort_by(version_sort) is a permutation, sorted and stable *)
Theorem sort_names_is_sort_by : forall l,
  Permutation l (sort_names l) /\ SortedBy version_sort (sort_names l)
  /\ StableWrt version_sort l (sort_names l).
Proof. exact Lemmas.sort_names_is_sort_by. Qed.
Print Assumptions sort_names_is_sort_by.

(* the result does not depend on the (stable) sort algorithm *)
Theorem sort_names_any_stable_sort : forall l out,
  Permutation l out -> SortedBy version_sort out -> StableWrt version_sort l out ->
  out = sort_names l.
Proof. exact Lemmas.sort_names_any_stable_sort. Qed.
Print Assumptions sort_names_any_stable_sort.

(* every permutation of pairwise non-Equal names sorts to the same list *)
Theorem version_sort_order_insensitive : forall l1 l2,
  Permutation l1 l2 ->
  (forall x y, In x l1 -> In y l1 -> version_sort x y = Eq -> x = y) ->
  sort_names l1 = sort_names l2.
Proof. exact Lemmas.version_sort_order_insensitive. Qed.
Print Assumptions version_sort_order_insensitive.

(* REFUTED: without that hypothesis two permutations of distinct names sort differently *)
Theorem version_sort_order_insensitive_all_refuted :
  exists l1 l2, Permutation l1 l2 /\ NoDup l1 /\ sort_names l1 <> sort_names l2.
Proof. exact Lemmas.version_sort_order_insensitive_all_refuted. Qed.
Print Assumptions version_sort_order_insensitive_all_refuted.

(* partial: every permutation sorts to the same list when every digit run is below 2^64 *)
Theorem version_sort_order_insensitive_partial : forall l1 l2,
  Permutation l1 l2 -> forallb digit_runs_fit l1 = true -> sort_names l1 = sort_names l2.
Proof. exact Lemmas.version_sort_order_insensitive_partial. Qed.
Print Assumptions version_sort_order_insensitive_partial.

(* items.sort_by(compare_items) is a permutation, sorted and stable *)
Theorem sort_items_is_sort_by : forall e l,
  Permutation l (sort_items e l) /\ SortedBy (items_cmp e) (sort_items e l)
  /\ StableWrt (items_cmp e) l (sort_items e l).
Proof. exact Lemmas.sort_items_is_sort_by. Qed.
Print Assumptions sort_items_is_sort_by.

(* the result does not depend on the (stable) sort algorithm *)
Theorem sort_items_any_stable_sort : forall e l out,
  Permutation l out -> SortedBy (items_cmp e) out -> StableWrt (items_cmp e) l out ->
  out = sort_items e l.
Proof. exact Lemmas.sort_items_any_stable_sort. Qed.
Print Assumptions sort_items_any_stable_sort.

(* every permutation of pairwise non-Equal items sorts to the same list *)
Theorem items_order_insensitive : forall e l1 l2,
  Permutation l1 l2 ->
  (forall x y, In x l1 -> In y l1 -> items_cmp e x y = Eq -> x = y) ->
  sort_items e l1 = sort_items e l2.
Proof. exact Lemmas.items_order_insensitive. Qed.
Print Assumptions items_order_insensitive.

(* REFUTED under 2024: two orders of the same two extern crate items are both kept *)
Theorem items_order_insensitive_all_refuted :
  exists l1 l2, Permutation l1 l2 /\ NoDup l1 /\ forallb item_wf l1 = true
                /\ sort_items SE2024 l1 <> sort_items SE2024 l2.
Proof. exact Lemmas.items_order_insensitive_all_refuted. Qed.
Print Assumptions items_order_insensitive_all_refuted.

(* partial: full order-insensitivity up to 2021, and under 2024 when the names fit *)
Theorem items_order_insensitive_partial : forall e l1 l2,
  Permutation l1 l2 -> forallb item_wf l1 = true ->
  (se_le_2021 e = true \/ forallb item_names_fit l1 = true) ->
  sort_items e l1 = sort_items e l2.
Proof. exact Lemmas.items_order_insensitive_partial. Qed.
Print Assumptions items_order_insensitive_partial.
