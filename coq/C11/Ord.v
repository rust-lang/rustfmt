(* C11/Ord.v — [cmp : A -> A -> comparison] stands for a Rust
   FnMut(&T, &T) -> Ordering; [isort] is a specification of any stable sort
   (slice::sort_by, Vec::sort), see [any_stable_sort_agrees]. *)
From Coq Require Import List Permutation Sorted Bool Arith NArith Lia.
From V Require Base.Lists.
Import ListNotations.

Lemma CompOpp_Eq c : CompOpp c = Eq <-> c = Eq.
Proof. exact (CompOpp_iff c Eq). Qed.
Lemma CompOpp_Gt c : CompOpp c = Gt <-> c = Lt.
Proof. exact (CompOpp_iff c Gt). Qed.

Record TotalPreorder (A : Type) (cmp : A -> A -> comparison) : Prop := MkTP {
  tp_refl    : forall a, cmp a a = Eq;
  tp_antisym : forall a b, cmp b a = CompOpp (cmp a b);
  tp_trans   : forall a b c, cmp a b = Lt -> cmp b c = Lt -> cmp a c = Lt;
  tp_eq_cong : forall a b c, cmp a b = Eq -> cmp a c = cmp b c
}.
Arguments TotalPreorder {A} cmp.
Arguments MkTP {A cmp} _ _ _ _.
Arguments tp_refl {A cmp} _ a.
Arguments tp_antisym {A cmp} _ a b.
Arguments tp_trans {A cmp} _ a b c _ _.
Arguments tp_eq_cong {A cmp} _ a b c _.

Section Laws.
Variable A : Type.
Variable cmp : A -> A -> comparison.
Hypothesis TP : TotalPreorder cmp.

Lemma tp_eq_sym a b : cmp a b = Eq -> cmp b a = Eq.
Proof. rewrite (tp_antisym TP a b). apply CompOpp_Eq. Qed.

Lemma tp_eq_cong_r a b c : cmp a b = Eq -> cmp c a = cmp c b.
Proof.
  intros H. rewrite (tp_antisym TP a c), (tp_antisym TP b c).
  rewrite (tp_eq_cong TP a b c H). reflexivity.
Qed.

Lemma tp_gt_lt a b : cmp a b = Gt <-> cmp b a = Lt.
Proof. rewrite (tp_antisym TP b a). apply CompOpp_Gt. Qed.

Definition le_of (a b : A) : Prop := cmp a b <> Gt.

Lemma le_of_refl a : le_of a a.
Proof. unfold le_of. rewrite (tp_refl TP). discriminate. Qed.

Lemma le_of_trans a b c : le_of a b -> le_of b c -> le_of a c.
Proof.
  unfold le_of. intros Hab Hbc Hac. apply tp_gt_lt in Hac.
  destruct (cmp a b) eqn:Eab.
  - apply Hbc. rewrite <- (tp_eq_cong TP a b c Eab). apply tp_gt_lt. exact Hac.
  - apply Hbc. apply tp_gt_lt. exact (tp_trans TP c a b Hac Eab).
  - apply Hab. reflexivity.
Qed.

Lemma le_of_total a b : le_of a b \/ le_of b a.
Proof.
  unfold le_of. rewrite (tp_antisym TP a b).
  destruct (cmp a b); cbn; [left|left|right]; discriminate.
Qed.

Lemma le_of_both_eq a b : le_of a b -> le_of b a -> cmp a b = Eq.
Proof.
  unfold le_of. rewrite (tp_antisym TP a b).
  destruct (cmp a b); cbn; intros H1 H2; [reflexivity|elim H2|elim H1]; reflexivity.
Qed.

(* stated on bare tie-breaking results [rab] [rbc] [rac] to serve both
   [cmp_then] and [cmp_lex] *)
Lemma then_trans a b c (rab rbc rac : comparison) :
  (rab = Lt -> rbc = Lt -> rac = Lt) ->
  match cmp a b with Eq => rab | o => o end = Lt ->
  match cmp b c with Eq => rbc | o => o end = Lt ->
  match cmp a c with Eq => rac | o => o end = Lt.
Proof.
  intros Hr. destruct (cmp a b) eqn:Eab; [|intros _|discriminate].
  - rewrite (tp_eq_cong TP a b c Eab). destruct (cmp b c); [exact Hr|intros _ H; exact H..].
  - destruct (cmp b c) eqn:Ebc; [|intros _|discriminate].
    + rewrite <- (tp_eq_cong_r b c a Ebc), Eab. intros _. reflexivity.
    + rewrite (tp_trans TP a b c Eab Ebc). reflexivity.
Qed.

Lemma then_eq_cong a b c (rab rac rbc : comparison) :
  (rab = Eq -> rac = rbc) ->
  match cmp a b with Eq => rab | o => o end = Eq ->
  match cmp a c with Eq => rac | o => o end = match cmp b c with Eq => rbc | o => o end.
Proof.
  intros Hr. destruct (cmp a b) eqn:Eab; [|discriminate..].
  rewrite (tp_eq_cong TP a b c Eab). intros H. destruct (cmp b c); [exact (Hr H)|reflexivity..].
Qed.
End Laws.
Arguments tp_eq_sym {A cmp} TP a b _.
Arguments tp_eq_cong_r {A cmp} TP a b c _.
Arguments tp_gt_lt {A cmp} TP a b.
Arguments le_of {A} cmp a b.
Arguments le_of_refl {A cmp} TP a.
Arguments le_of_trans {A cmp} TP a b c _ _.
Arguments le_of_total {A cmp} TP a b.
Arguments le_of_both_eq {A cmp} TP a b _ _.
Arguments then_trans {A cmp} TP a b c rab rbc rac _ _ _.
Arguments then_eq_cong {A cmp} TP a b c rab rac rbc _ _.

Lemma tp_pull (A B : Type) (f : B -> A) (c1 : A -> A -> comparison) (c2 : B -> B -> comparison) :
  (forall x y, c2 x y = c1 (f x) (f y)) -> TotalPreorder c1 -> TotalPreorder c2.
Proof.
  intros He TP. constructor.
  - intros a. rewrite He. apply (tp_refl TP).
  - intros a b. rewrite !He. apply (tp_antisym TP).
  - intros a b c. rewrite !He. apply (tp_trans TP).
  - intros a b c. rewrite !He. apply (tp_eq_cong TP).
Qed.
Arguments tp_pull {A B} f c1 c2 _ _.

Section Combinators.
Variables A B : Type.

Definition cmp_on (f : B -> A) (cmp : A -> A -> comparison) (x y : B) : comparison :=
  cmp (f x) (f y).

Lemma cmp_on_tp (f : B -> A) cmp : TotalPreorder cmp -> TotalPreorder (cmp_on f cmp).
Proof. apply (tp_pull f cmp). reflexivity. Qed.

Definition cmp_flip (cmp : A -> A -> comparison) (x y : A) : comparison := cmp y x.

Lemma cmp_flip_tp cmp : TotalPreorder cmp -> TotalPreorder (cmp_flip cmp).
Proof.
  intros TP. unfold cmp_flip. constructor.
  - intros a. apply (tp_refl TP).
  - intros a b. apply (tp_antisym TP).
  - intros a b c Hab Hbc. exact (tp_trans TP c b a Hbc Hab).
  - intros a b c Hab. apply (tp_eq_cong_r TP). apply (tp_eq_sym TP). exact Hab.
Qed.

(* Ordering::then / "if result != Equal return result; second" *)
Definition cmp_then (c1 c2 : A -> A -> comparison) (x y : A) : comparison :=
  match c1 x y with Eq => c2 x y | o => o end.

Lemma cmp_then_tp c1 c2 :
  TotalPreorder c1 -> TotalPreorder c2 -> TotalPreorder (cmp_then c1 c2).
Proof.
  intros T1 T2. unfold cmp_then. constructor.
  - intros a. rewrite (tp_refl T1). apply (tp_refl T2).
  - intros a b. rewrite (tp_antisym T1 a b). destruct (c1 a b); [apply (tp_antisym T2)|reflexivity..].
  - intros a b c. apply (then_trans T1), (tp_trans T2).
  - intros a b c. apply (then_eq_cong T1), (tp_eq_cong T2).
Qed.

Lemma cmp_then_eq c1 c2 a b : cmp_then c1 c2 a b = Eq <-> c1 a b = Eq /\ c2 a b = Eq.
Proof.
  unfold cmp_then. destruct (c1 a b); [|split; [discriminate|intros [H _]; discriminate H]..].
  split; [intros H; split; [reflexivity|exact H]|intros [_ H]; exact H].
Qed.
End Combinators.
Arguments cmp_on {A B} f cmp x y.
Arguments cmp_flip {A} cmp x y.
Arguments cmp_then {A} c1 c2 x y.
Arguments cmp_on_tp {A B} f cmp _.
Arguments cmp_flip_tp {A} cmp _.
Arguments cmp_then_tp {A} c1 c2 _ _.
Arguments cmp_then_eq {A} c1 c2 a b.

(* the Ord of slices and of str *)
Section Lex.
Variable A : Type.
Variable cmp : A -> A -> comparison.

Fixpoint cmp_lex (l1 l2 : list A) : comparison :=
  match l1, l2 with
  | [], [] => Eq
  | [], _ :: _ => Lt
  | _ :: _, [] => Gt
  | x :: l1', y :: l2' => match cmp x y with Eq => cmp_lex l1' l2' | o => o end
  end.

Hypothesis TP : TotalPreorder cmp.

Lemma cmp_lex_refl l : cmp_lex l l = Eq.
Proof.
  induction l as [|x l IH]; cbn [cmp_lex].
  - reflexivity.
  - rewrite (tp_refl TP). exact IH.
Qed.

Lemma cmp_lex_antisym l1 l2 : cmp_lex l2 l1 = CompOpp (cmp_lex l1 l2).
Proof.
  revert l2. induction l1 as [|x l1 IH]; intros [|y l2]; cbn [cmp_lex]; try reflexivity.
  rewrite (tp_antisym TP x y). destruct (cmp x y); [apply IH|reflexivity..].
Qed.

Lemma cmp_lex_trans l1 l2 l3 :
  cmp_lex l1 l2 = Lt -> cmp_lex l2 l3 = Lt -> cmp_lex l1 l3 = Lt.
Proof.
  revert l2 l3. induction l1 as [|x l1 IH]; intros [|y l2] [|z l3]; cbn [cmp_lex];
    try reflexivity; try discriminate.
  apply (then_trans TP), IH.
Qed.

Lemma cmp_lex_eq_cong l1 l2 l3 :
  cmp_lex l1 l2 = Eq -> cmp_lex l1 l3 = cmp_lex l2 l3.
Proof.
  revert l2 l3. induction l1 as [|x l1 IH]; intros [|y l2] [|z l3]; cbn [cmp_lex];
    try reflexivity; try discriminate.
  apply (then_eq_cong TP), IH.
Qed.

Lemma cmp_lex_tp : TotalPreorder cmp_lex.
Proof.
  constructor.
  - exact cmp_lex_refl.
  - exact cmp_lex_antisym.
  - exact cmp_lex_trans.
  - exact cmp_lex_eq_cong.
Qed.

Lemma cmp_lex_eq_inv l1 l2 :
  (forall x y, In x l1 -> In y l2 -> cmp x y = Eq -> x = y) -> cmp_lex l1 l2 = Eq -> l1 = l2.
Proof.
  revert l2. induction l1 as [|x l1 IH]; intros [|y l2] Hid; cbn [cmp_lex];
    try reflexivity; try discriminate.
  destruct (cmp x y) eqn:Exy; try discriminate. intros H.
  rewrite (Hid x y (or_introl eq_refl) (or_introl eq_refl) Exy), (IH l2); [reflexivity| |exact H].
  intros u v Hu Hv. apply Hid; right; assumption.
Qed.
End Lex.
Arguments cmp_lex {A} cmp l1 l2.
Arguments cmp_lex_tp {A cmp} TP.
Arguments cmp_lex_eq_inv {A} cmp l1 l2 _ _.

Lemma N_compare_tp : TotalPreorder N.compare.
Proof.
  constructor.
  - exact N.compare_refl.
  - intros a b. apply N.compare_antisym.
  - intros a b c. rewrite !N.compare_lt_iff. lia.
  - intros a b c H. apply N.compare_eq in H. subst b. reflexivity.
Qed.

Lemma nat_compare_tp : TotalPreorder Nat.compare.
Proof. exact (tp_pull N.of_nat N.compare Nat.compare Nat2N.inj_compare N_compare_tp). Qed.

Create HintDb tp discriminated.
#[export] Hint Resolve cmp_on_tp cmp_flip_tp cmp_then_tp cmp_lex_tp N_compare_tp nat_compare_tp : tp.

Definition is_eq (c : comparison) : bool := match c with Eq => true | _ => false end.

Section Sort.
Variable A : Type.
Variable cmp : A -> A -> comparison.

(* [x] stops in front of the elements it is Equal to: [isort] inserts the head
   of its list last, so this is what keeps equals in their order *)
Fixpoint insert (x : A) (l : list A) : list A :=
  match l with
  | [] => [x]
  | y :: l' => match cmp x y with
               | Gt => y :: insert x l'
               | _ => x :: l
               end
  end.

Fixpoint isort (l : list A) : list A :=
  match l with
  | [] => []
  | x :: l' => insert x (isort l')
  end.

Definition SortedBy (l : list A) : Prop := Sorted (le_of cmp) l.
Definition eq_class (x : A) (l : list A) : list A := filter (fun y => is_eq (cmp x y)) l.
Definition StableWrt (l out : list A) : Prop := forall x, eq_class x out = eq_class x l.

(* [insert] is an insertion function in the sense of Base.Lists, with this test, and [isort] is
   convertible with [fold_right insert []] *)
Definition leb_of (x y : A) : bool := match cmp x y with Gt => false | _ => true end.

Lemma insert_cons x y l :
  insert x (y :: l) = if leb_of x y then x :: y :: l else y :: insert x l.
Proof. unfold leb_of. cbn [insert]. destruct (cmp x y); reflexivity. Qed.

Lemma isort_perm l : Permutation l (isort l).
Proof. symmetry. exact (Lists.isort_perm leb_of insert (fun _ => eq_refl) insert_cons l). Qed.

Lemma sorted_isort_id l : SortedBy l -> isort l = l.
Proof.
  induction 1 as [|x l Hs IH Hhd]; cbn [isort]; [reflexivity|]. rewrite IH.
  destruct Hhd as [|y l Hle]; cbn [insert]; [reflexivity|].
  unfold le_of in Hle. destruct (cmp x y); [reflexivity..|elim Hle; reflexivity].
Qed.

Hypothesis TP : TotalPreorder cmp.

Lemma isort_sorted l : SortedBy (isort l).
Proof.
  apply StronglySorted_Sorted.
  apply (Lists.isort_sorted leb_of insert (fun _ => eq_refl) insert_cons (le_of cmp)).
  - unfold leb_of, le_of. intros x y H E. rewrite E in H. discriminate H.
  - unfold leb_of, le_of. intros x y. rewrite (tp_antisym TP x y). destruct (cmp x y); discriminate.
  - exact (le_of_trans TP).
Qed.

Lemma eq_class_head x l : eq_class x (x :: l) = x :: eq_class x l.
Proof. unfold eq_class. cbn [filter]. rewrite (tp_refl TP). reflexivity. Qed.

(* [x0] passes only elements it is Greater than, none of which shares a class with it *)
Lemma insert_eq_class x0 x l : eq_class x (insert x0 l) = eq_class x (x0 :: l).
Proof.
  unfold eq_class. induction l as [|y l IH]; cbn [insert].
  - reflexivity.
  - destruct (cmp x0 y) eqn:E0y; try reflexivity.
    cbn [filter] in *. rewrite IH.
    destruct (cmp x y) eqn:Exy, (cmp x x0) eqn:Exx0; try reflexivity.
    rewrite <- (tp_eq_cong TP x x0 y Exx0), Exy in E0y. discriminate E0y.
Qed.

Lemma isort_stable l : StableWrt l (isort l).
Proof.
  intros x. induction l as [|x0 l IH]; cbn [isort].
  - reflexivity.
  - rewrite insert_eq_class. unfold eq_class in *. cbn [filter]. rewrite IH. reflexivity.
Qed.

Lemma isort_is_sort_by l :
  Permutation l (isort l) /\ SortedBy (isort l) /\ StableWrt l (isort l).
Proof. split; [apply isort_perm|]. split; [apply isort_sorted|apply isort_stable]. Qed.

Lemma sorted_heads_le x t1 y t2 :
  SortedBy (x :: t1) -> eq_class y (x :: t1) = eq_class y (y :: t2) -> le_of cmp x y.
Proof.
  intros S Hc.
  assert (Hy : In y (eq_class y (x :: t1))) by (rewrite Hc, eq_class_head; left; reflexivity).
  unfold eq_class in Hy. apply filter_In, proj1 in Hy.
  destruct Hy as [<-|Hy]; [apply (le_of_refl TP)|].
  apply Sorted_extends in S; [exact (proj1 (Forall_forall _ _) S y Hy)|].
  intros a b c. apply (le_of_trans TP).
Qed.

(* the heads of the two lists are below each other, hence in one class, of
   which each is the first member *)
Lemma sorted_classes_unique l1 l2 :
  SortedBy l1 -> SortedBy l2 -> (forall x, eq_class x l1 = eq_class x l2) -> l1 = l2.
Proof.
  intros S1 S2. revert l2 S2. induction l1 as [|x t1 IH]; intros [|y t2] S2 Hc.
  - reflexivity.
  - specialize (Hc y). rewrite eq_class_head in Hc. discriminate Hc.
  - specialize (Hc x). rewrite eq_class_head in Hc. discriminate Hc.
  - assert (Hxy : cmp x y = Eq).
    { apply (le_of_both_eq TP).
      - apply (sorted_heads_le x t1 y t2 S1), Hc.
      - apply (sorted_heads_le y t2 x t1 S2). symmetry. apply Hc. }
    pose proof (Hc x) as Hx. unfold eq_class in Hx. cbn [filter] in Hx.
    rewrite (tp_refl TP), Hxy in Hx. injection Hx as <- _.
    apply Sorted_inv in S1, S2.
    f_equal. apply (IH (proj1 S1) t2 (proj1 S2)).
    intros z. specialize (Hc z). unfold eq_class in *. cbn [filter] in Hc.
    destruct (is_eq (cmp z x)); [injection Hc as Hc|]; exact Hc.
Qed.

Lemma isort_eq_iff l1 l2 :
  isort l1 = isort l2 <-> (forall x, eq_class x l1 = eq_class x l2).
Proof.
  split.
  - intros H x. rewrite <- (isort_stable l1 x), <- (isort_stable l2 x), H. reflexivity.
  - intros Hc. apply sorted_classes_unique; [apply isort_sorted..|].
    intros x. rewrite (isort_stable l1 x), (isort_stable l2 x). apply Hc.
Qed.

Lemma any_stable_sort_agrees l out :
  Permutation l out -> SortedBy out -> StableWrt l out -> out = isort l.
Proof.
  (* stability alone fixes the elements: the Permutation hypothesis is not used *)
  intros _ Hs Hst. rewrite <- (sorted_isort_id out Hs). apply isort_eq_iff. exact Hst.
Qed.

Lemma eq_class_perm x l1 l2 :
  Permutation l1 l2 ->
  (forall a b, In a l1 -> In b l1 -> cmp a b = Eq -> a = b) ->
  eq_class x l1 = eq_class x l2.
Proof.
  unfold eq_class.
  induction 1 as [|a l1 l2 Hp IH|a b l|l1 l2 l3 Hp1 IH1 Hp2 IH2]; intros Hid; cbn [filter].
  - reflexivity.
  - rewrite IH; [reflexivity|]. intros u v Hu Hv. apply Hid; right; assumption.
  - destruct (cmp x a) eqn:Ea, (cmp x b) eqn:Eb; try reflexivity.
    rewrite (Hid a b); [reflexivity|right; left; reflexivity|left; reflexivity|].
    rewrite <- (tp_eq_cong TP x a b Ea). exact Eb.
  - rewrite IH1, IH2; [reflexivity| |exact Hid].
    intros u v Hu Hv. apply Hid; apply (Permutation_in _ (Permutation_sym Hp1)); assumption.
Qed.

Lemma sort_unique l1 l2 :
  Permutation l1 l2 ->
  (forall x y, In x l1 -> In y l1 -> cmp x y = Eq -> x = y) ->
  isort l1 = isort l2.
Proof. intros Hp Hid. apply isort_eq_iff. intros x. apply eq_class_perm; assumption. Qed.

Lemma order_sensitive_pair a b :
  cmp a b = Eq -> a <> b ->
  Permutation [a; b] [b; a] /\ NoDup [a; b] /\ isort [a; b] <> isort [b; a].
Proof.
  intros Hab Hne. split; [apply perm_swap|]. split.
  - repeat constructor; [|intros []]. intros [H|[]]. exact (Hne (eq_sym H)).
  - cbn [isort insert]. rewrite Hab, (tp_eq_sym TP a b Hab). intros [= H _]. exact (Hne H).
Qed.
End Sort.
Arguments insert {A} cmp x l.
Arguments isort {A} cmp l.
Arguments SortedBy {A} cmp l.
Arguments eq_class {A} cmp x l.
Arguments StableWrt {A} cmp l out.
Arguments isort_perm {A} cmp l.
Arguments sorted_isort_id {A} cmp l _.
Arguments isort_sorted {A cmp} TP l.
Arguments isort_stable {A cmp} TP l.
Arguments isort_is_sort_by {A cmp} TP l.
Arguments isort_eq_iff {A cmp} TP l1 l2.
Arguments any_stable_sort_agrees {A cmp} TP l out _ _ _.
Arguments sort_unique {A cmp} TP l1 l2 _ _.
Arguments order_sensitive_pair {A cmp} TP a b _ _.
