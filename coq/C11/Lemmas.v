(* C11/Lemmas.v — each comparator is shown to be a comparison of keys built
   from the combinators of Ord.v, whence the preorder laws; Equal is identity
   where the keys determine the element. *)
From Coq Require Import Permutation Sorted.
From V Require Import Base.Text C11.Ord C11.Model.
Local Open Scope N_scope.
Arguments N.add : simpl never.
Arguments N.sub : simpl never.
Arguments N.mul : simpl never.
Arguments N.ltb : simpl never.
Arguments N.leb : simpl never.
Arguments N.eqb : simpl never.

Lemma span_spec p t a r :
  span p t = (a, r) ->
  t = a ++ r /\ forallb p a = true /\ match r with [] => True | c :: _ => p c = false end.
Proof.
  revert a r. induction t as [|c t IH]; intros a r; cbn [span].
  - intros [= <- <-]. repeat split.
  - destruct (p c) eqn:Hc.
    + destruct (span p t) as [a' r']. intros [= <- <-].
      destruct (IH a' r' eq_refl) as (-> & Ha & Hr).
      cbn [app forallb]. rewrite Hc. repeat split; assumption.
    + intros [= <- <-]. repeat split. exact Hc.
Qed.

Definition all_digits (s : text) : Prop := forallb is_ascii_digit s = true.
Definition val (s : text) : N := digits_value 0 s.

Lemma digit_range c : is_ascii_digit c = true -> 48 <= c /\ c <= 57.
Proof.
  unfold is_ascii_digit. rewrite andb_true_iff, !N.leb_le. intros H; exact H.
Qed.

Lemma nondigit_range c : is_ascii_digit c = false -> c < 48 \/ 57 < c.
Proof.
  unfold is_ascii_digit. rewrite andb_false_iff, !N.leb_gt. intros H; exact H.
Qed.

Lemma all_digits_cons c s : all_digits (c :: s) <-> is_ascii_digit c = true /\ all_digits s.
Proof. unfold all_digits. cbn [forallb]. apply andb_true_iff. Qed.

Lemma all_digits_app a b : all_digits (a ++ b) -> all_digits a /\ all_digits b.
Proof. unfold all_digits. rewrite forallb_app. apply andb_true_iff. Qed.

Definition wf_chunk (ch : chunk) : Prop :=
  match ch with
  | Underscore => True
  | Str s => match s with c :: _ => is_ascii_digit c = false | [] => False end
  | Number v z s => s <> [] /\ all_digits s /\ v = val s /\ z = leading_zeros s
  end.

Lemma vc_next_spec t ch rest :
  vc_next t = Some (ch, rest) -> t = chunk_source ch ++ rest /\ wf_chunk ch.
Proof.
  destruct t as [|c t]; cbn [vc_next]; [discriminate|].
  destruct (c =? UNDERSCORE) eqn:Hu; [|destruct (is_ascii_digit c) eqn:Hd].
  - apply N.eqb_eq in Hu. subst c. intros [= <- <-]. split; [reflexivity|exact I].
  - unfold parse_numeric_chunk, parse_usize.
    destruct (span is_ascii_digit t) as [s r] eqn:Es. apply span_spec in Es as (-> & Hs & _).
    destruct (digits_value 0 (c :: s) <? USIZE_LIMIT); intros [= <- <-].
    split; [reflexivity|]. split; [discriminate|]. split; [|split; reflexivity].
    apply all_digits_cons. split; assumption.
  - unfold parse_str_chunk.
    destruct (span str_continues t) as [s r] eqn:Es. apply span_spec in Es as (-> & _).
    intros [= <- <-]. split; [reflexivity|exact Hd].
Qed.

Lemma wf_source ch : wf_chunk ch -> chunk_source ch <> [].
Proof.
  destruct ch as [|[|c s]|v z s]; [discriminate|contradiction|discriminate|intros [H _]; exact H].
Qed.

Lemma vc_next_shorter t ch rest :
  vc_next t = Some (ch, rest) -> (length rest < length t)%nat.
Proof.
  intros H. apply vc_next_spec in H as [-> Hw]. apply wf_source in Hw.
  rewrite app_length. destruct (chunk_source ch); [contradiction|cbn [length]; lia].
Qed.

Lemma chunks_fuel_step n : forall t,
  (length t <= n)%nat ->
  chunks_fuel n t = match vc_next t with
                    | None => []
                    | Some (ch, rest) => ch :: chunks rest
                    end.
Proof.
  induction n as [n IH] using lt_wf_ind. intros t Hn. destruct n as [|n].
  - destruct t; [reflexivity|cbn [length] in Hn; lia].
  - cbn [chunks_fuel]. destruct (vc_next t) as [[ch rest]|] eqn:Hnext; [|reflexivity].
    apply vc_next_shorter in Hnext. unfold chunks.
    rewrite (IH n), (IH (length rest)) by lia. reflexivity.
Qed.

Lemma chunks_nil : chunks [] = [].
Proof. reflexivity. Qed.

Lemma chunks_unfold t :
  chunks t = match vc_next t with
             | None => []
             | Some (ch, rest) => ch :: chunks rest
             end.
Proof. exact (chunks_fuel_step (length t) t (le_n _)). Qed.

Lemma chunks_total n t :
  (length t <= n)%nat -> chunks_fuel n t = chunks t.
Proof. intros Hn. rewrite (chunks_fuel_step n t Hn). symmetry. apply chunks_unfold. Qed.

Lemma chunks_ind (P : text -> list chunk -> Prop) :
  (forall t, vc_next t = None -> P t []) ->
  (forall t ch rest, vc_next t = Some (ch, rest) -> P rest (chunks rest) -> P t (ch :: chunks rest)) ->
  forall t, P t (chunks t).
Proof.
  intros Hnone Hsome t. induction t as [t IH] using (induction_ltof1 _ (@length char)).
  rewrite chunks_unfold. destruct (vc_next t) as [[ch rest]|] eqn:Hn.
  - apply (Hsome t ch rest Hn), IH. exact (vc_next_shorter t ch rest Hn).
  - apply Hnone. exact Hn.
Qed.

Lemma chunks_wf t : Forall wf_chunk (chunks t).
Proof.
  apply (chunks_ind (fun _ cs => Forall wf_chunk cs)).
  - constructor.
  - intros t' ch rest Hn IH. constructor; [exact (proj2 (vc_next_spec t' ch rest Hn))|exact IH].
Qed.

Lemma str_total_preorder : TotalPreorder cmp_text.
Proof. exact (cmp_lex_tp N_compare_tp). Qed.

Lemma cmp_text_eq a b : cmp_text a b = Eq -> a = b.
Proof. apply cmp_lex_eq_inv. intros x y _ _. apply N.compare_eq. Qed.

(* version_sort as a lexicographic comparison of keys.
   The key of a chunk is a text, and keys are compared by cmp_text: the empty
   text for Underscore, its string for a Str, '0' followed by the value (as one
   element: a char is an N) for a Number.  A Str does not begin with a digit,
   so it stands to '0' as it stands to the first digit of a Number's source,
   with which the loop compares it; two Numbers agree on '0' and are told
   apart by their values.
   Hence Underscore < Str below the digits < Number < Str above the digits.
   Ties between whole chunk lists are broken by the first difference in the
   numbers of leading zeros, more zeros first. *)
Definition chunk_key (c : chunk) : text :=
  match c with
  | Underscore => []
  | Str s => s
  | Number v _ _ => [ZERO; v]
  end.
Definition chunk_zeros (c : chunk) : nat :=
  match c with Number _ z _ => z | _ => O end.

Definition zeros_cmp : nat -> nat -> comparison := cmp_flip Nat.compare.

Definition clist_cmp : list chunk -> list chunk -> comparison :=
  cmp_then (cmp_on (map chunk_key) (cmp_lex cmp_text))
           (cmp_on (map chunk_zeros) (cmp_lex zeros_cmp)).

Lemma clist_cmp_tp : TotalPreorder clist_cmp.
Proof. unfold clist_cmp, zeros_cmp. auto using str_total_preorder with tp. Qed.

Definition mlz_upd (reg : mlz) (z : comparison) : mlz :=
  match reg with
  | MEqual => match z with Lt => MLeft | Gt => MRight | Eq => MEqual end
  | r => r
  end.
Definition mlz_result (reg : mlz) (z : comparison) : comparison :=
  match reg with MEqual => z | MLeft => Lt | MRight => Gt end.

Lemma mlz_upd_same reg z : mlz_upd reg (zeros_cmp z z) = reg.
Proof. unfold zeros_cmp, cmp_flip. rewrite Nat.compare_refl. destruct reg; reflexivity. Qed.

Lemma mlz_upd_zeros reg za zb :
  (if Nat.eqb za zb then reg
   else if mlz_is_equal reg && Nat.ltb zb za then MLeft
   else if mlz_is_equal reg && Nat.ltb za zb then MRight
   else reg) = mlz_upd reg (zeros_cmp za zb).
Proof.
  unfold zeros_cmp, cmp_flip.
  rewrite Nat.eqb_compare, !Nat.ltb_compare, (Nat.compare_antisym zb za).
  destruct (Nat.compare zb za), reg; reflexivity.
Qed.

Lemma mlz_result_upd reg z rest :
  mlz_result (mlz_upd reg z) rest = mlz_result reg (match z with Eq => rest | Lt => Lt | Gt => Gt end).
Proof. destruct reg, z; reflexivity. Qed.

Lemma str_number_cmp s n v :
  wf_chunk (Str s) -> n <> [] -> all_digits n ->
  cmp_text s n = cmp_text s (ZERO :: v) /\ cmp_text s n <> Eq.
Proof.
  destruct s as [|c s]; [contradiction|]. destruct n as [|d n]; [intros _ Hn; elim Hn; reflexivity|].
  intros Hc _ Hd. apply nondigit_range in Hc. apply all_digits_cons, proj1, digit_range in Hd.
  unfold cmp_text. cbn [cmp_lex]. unfold ZERO. destruct Hc as [Hc|Hc].
  - rewrite (proj2 (N.compare_lt_iff c d)), (proj2 (N.compare_lt_iff c 48)) by lia.
    split; [reflexivity|discriminate].
  - rewrite (proj2 (N.compare_gt_iff c d)), (proj2 (N.compare_gt_iff c 48)) by lia.
    split; [reflexivity|discriminate].
Qed.

Lemma vs_loop_cons reg a ca b cb :
  wf_chunk a -> wf_chunk b ->
  vs_loop reg (a :: ca) (b :: cb) =
  match cmp_text (chunk_key a) (chunk_key b) with
  | Eq => vs_loop (mlz_upd reg (zeros_cmp (chunk_zeros a) (chunk_zeros b))) ca cb
  | o => o
  end.
Proof.
  intros Ha Hb. destruct a as [|sa|va za sa], b as [|sb|vb zb sb];
    cbn [vs_loop chunk_key chunk_zeros].
  - (* Underscore, Underscore *) rewrite mlz_upd_same. reflexivity.
  - (* Underscore, Str *) destruct sb; [contradiction|reflexivity].
  - (* Underscore, Number *) reflexivity.
  - (* Str, Underscore *) destruct sa; [contradiction|reflexivity].
  - (* Str, Str *) rewrite mlz_upd_same. reflexivity.
  - (* Str, Number *)
    destruct Hb as (Hb & Hdb & _). destruct (str_number_cmp sa sb [vb] Ha Hb Hdb) as [E Hne].
    rewrite <- E. destruct (cmp_text sa sb); [elim Hne|..]; reflexivity.
  - (* Number, Underscore *) reflexivity.
  - (* Number, Str *)
    destruct Ha as (Ha & Hda & _). destruct (str_number_cmp sb sa [va] Hb Ha Hda) as [E Hne].
    rewrite (tp_antisym str_total_preorder sb sa), (tp_antisym str_total_preorder sb [ZERO; va]), <- E.
    destruct (cmp_text sb sa); [elim Hne|..]; reflexivity.
  - (* Number, Number *)
    unfold cmp_text. cbn [cmp_lex]. rewrite <- mlz_upd_zeros.
    destruct (N.compare va vb); [destruct (Nat.eqb za zb)|..]; reflexivity.
Qed.

Lemma vs_loop_spec ca : forall cb reg,
  Forall wf_chunk ca -> Forall wf_chunk cb ->
  vs_loop reg ca cb =
  match cmp_lex cmp_text (map chunk_key ca) (map chunk_key cb) with
  | Eq => mlz_result reg (cmp_lex zeros_cmp (map chunk_zeros ca) (map chunk_zeros cb))
  | o => o
  end.
Proof.
  induction ca as [|a ca IH]; intros [|b cb] reg Ha Hb.
  - destruct reg; reflexivity.
  - reflexivity.
  - reflexivity.
  - apply Forall_cons_iff in Ha as [Hwa Ha], Hb as [Hwb Hb].
    rewrite (vs_loop_cons reg a ca b cb Hwa Hwb), (IH cb _ Ha Hb).
    cbn [map cmp_lex].
    destruct (cmp_text (chunk_key a) (chunk_key b)); [|reflexivity..].
    destruct (cmp_lex cmp_text (map chunk_key ca) (map chunk_key cb)); [|reflexivity..].
    apply mlz_result_upd.
Qed.

Lemma version_sort_clist a b : version_sort a b = clist_cmp (chunks a) (chunks b).
Proof.
  unfold version_sort. rewrite vs_loop_spec by apply chunks_wf. reflexivity.
Qed.

Lemma vs_total_preorder : TotalPreorder version_sort.
Proof. exact (tp_pull chunks clist_cmp version_sort version_sort_clist clist_cmp_tp). Qed.

Lemma dv_snoc s c : forall acc,
  digits_value acc (s ++ [c]) = digits_value acc s * 10 + (c - ZERO).
Proof. induction s as [|d s IH]; intros acc; cbn [app digits_value]; [reflexivity|apply IH]. Qed.

Lemma dv_ge s : forall acc, acc <= digits_value acc s.
Proof.
  induction s as [|c s IH]; intros acc; cbn [digits_value]; [lia|].
  specialize (IH (acc * 10 + (c - ZERO))). lia.
Qed.

Definition canonical (r : text) : Prop :=
  match r with [] => True | c :: _ => (c =? ZERO) = false end.

Lemma val_zero r : all_digits r -> canonical r -> val r = 0 -> r = [].
Proof.
  destruct r as [|c s]; [reflexivity|]. intros Hd Hc Hv. exfalso.
  apply all_digits_cons in Hd. destruct Hd as [Hd _]. apply digit_range in Hd.
  cbn [canonical] in Hc. apply N.eqb_neq in Hc.
  unfold val in Hv. cbn [digits_value] in Hv.
  pose proof (dv_ge s (0 * 10 + (c - ZERO))) as Hge. unfold ZERO in *. lia.
Qed.

(* compared from the last digit: equal values end in the same digit and have
   equal values in front of it; a numeral without a leading zero is empty when
   its value is 0, so neither can run out before the other *)
Lemma val_inj r1 : forall r2,
  all_digits r1 -> all_digits r2 -> canonical r1 -> canonical r2 ->
  val r1 = val r2 -> r1 = r2.
Proof.
  induction r1 as [|c r1 IH] using rev_ind; intros r2 H1 H2 C1 C2 Hv.
  - symmetry. apply val_zero; [exact H2|exact C2|symmetry; exact Hv].
  - destruct r2 as [|d r2 _] using rev_ind; [apply val_zero; assumption|].
    apply all_digits_app in H1, H2. destruct H1 as [H1 Hc], H2 as [H2 Hd].
    apply all_digits_cons in Hc, Hd. apply proj1, digit_range in Hc, Hd.
    unfold val in Hv. rewrite !dv_snoc in Hv. unfold ZERO in Hv.
    assert (Hcd : c = d) by lia. subst d. f_equal.
    apply IH; [exact H1|exact H2| | |unfold val; lia].
    + destruct r1; [exact I|exact C1].
    + destruct r2; [exact I|exact C2].
Qed.

Lemma zeros_repeat (l : text) : forallb (fun c => c =? ZERO) l = true -> l = repeat ZERO (length l).
Proof.
  rewrite forallb_forall. intros H. apply Forall_eq_repeat, Forall_forall.
  intros c Hc. symmetry. apply N.eqb_eq, H, Hc.
Qed.

Lemma val_zeros_app n r : val (repeat ZERO n ++ r) = val r.
Proof.
  induction n as [|n IH]; cbn [repeat app].
  - reflexivity.
  - unfold val in *. cbn [digits_value]. exact IH.
Qed.

Lemma num_source_inj s1 s2 :
  all_digits s1 -> all_digits s2 ->
  val s1 = val s2 -> leading_zeros s1 = leading_zeros s2 -> s1 = s2.
Proof.
  unfold leading_zeros.
  destruct (span _ s1) as [z1 r1] eqn:E1. apply span_spec in E1 as (-> & Z1 & R1).
  destruct (span _ s2) as [z2 r2] eqn:E2. apply span_spec in E2 as (-> & Z2 & R2).
  cbn [fst]. intros H1 H2 Hv Hz.
  apply zeros_repeat in Z1, Z2. rewrite Z1, Z2 in Hv |- *. rewrite !val_zeros_app in Hv. rewrite Hz.
  apply all_digits_app in H1, H2.
  f_equal. apply val_inj; [exact (proj2 H1)|exact (proj2 H2)|exact R1|exact R2|exact Hv].
Qed.

Lemma zeros_cmp_eq a b : zeros_cmp a b = Eq -> a = b.
Proof. intros H. symmetry. apply Nat.compare_eq. exact H. Qed.

Lemma chunk_key_inj a b :
  wf_chunk a -> wf_chunk b ->
  chunk_key a = chunk_key b -> chunk_zeros a = chunk_zeros b -> a = b.
Proof.
  destruct a as [|sa|va za sa], b as [|sb|vb zb sb]; cbn [wf_chunk chunk_key chunk_zeros];
    intros Ha Hb Hk Hz; try discriminate Hk.
  - reflexivity.
  - subst sb. contradiction.
  - subst sa. contradiction.
  - subst sb. reflexivity.
  - subst sa. discriminate Ha.
  - subst sb. discriminate Hb.
  - injection Hk as Hv.
    destruct Ha as (_ & Hda & -> & ->), Hb as (_ & Hdb & -> & ->).
    rewrite (num_source_inj sa sb Hda Hdb Hv Hz). reflexivity.
Qed.

Lemma clist_eq_inv ca cb :
  Forall wf_chunk ca -> Forall wf_chunk cb -> clist_cmp ca cb = Eq -> ca = cb.
Proof.
  intros Ha Hb H. apply cmp_then_eq in H. destruct H as [Hk Hz]. unfold cmp_on in *.
  apply cmp_lex_eq_inv in Hk; [|intros x y _ _; apply cmp_text_eq].
  apply cmp_lex_eq_inv in Hz; [|intros x y _ _; apply zeros_cmp_eq].
  revert cb Hb Hk Hz.
  induction Ha as [|a ca Hwa Ha IH]; intros [|b cb] Hb Hk Hz;
    try reflexivity; try discriminate Hk.
  apply Forall_cons_iff in Hb. injection Hk as Hk Hk'. injection Hz as Hz Hz'.
  rewrite (chunk_key_inj a b Hwa (proj1 Hb) Hk Hz), (IH cb (proj2 Hb) Hk' Hz'). reflexivity.
Qed.

Lemma vs_eq_iff a b : version_sort a b = Eq <-> chunks a = chunks b.
Proof.
  rewrite version_sort_clist. split.
  - apply clist_eq_inv; apply chunks_wf.
  - intros ->. apply (tp_refl clist_cmp_tp).
Qed.

Lemma vs_eq_identity_cover a b :
  chunks_cover a = true -> chunks_cover b = true -> version_sort a b = Eq -> a = b.
Proof.
  unfold chunks_cover. intros Ha Hb He.
  apply eqb_text_spec in Ha. apply eqb_text_spec in Hb. apply vs_eq_iff in He.
  rewrite <- Ha, <- Hb, He. reflexivity.
Qed.

Lemma usize_limit_pos : (0 <? USIZE_LIMIT) = true.
Proof. reflexivity. Qed.

Lemma fit_span_digits t : forall acc,
  digit_runs_fit_aux acc t =
  (digits_value acc (fst (span is_ascii_digit t)) <? USIZE_LIMIT)
  && digit_runs_fit_aux 0 (snd (span is_ascii_digit t)).
Proof.
  induction t as [|c t IH]; intros acc; cbn [span digit_runs_fit_aux].
  - cbn [fst snd digits_value digit_runs_fit_aux]. rewrite usize_limit_pos, andb_true_r. reflexivity.
  - destruct (is_ascii_digit c) eqn:Hc.
    + rewrite IH. destruct (span is_ascii_digit t) as [s r]. reflexivity.
    + cbn [fst snd digits_value digit_runs_fit_aux]. rewrite Hc, usize_limit_pos. reflexivity.
Qed.

Lemma fit_span_str t :
  digit_runs_fit_aux 0 t = digit_runs_fit_aux 0 (snd (span str_continues t)).
Proof.
  induction t as [|c t IH]; cbn [span].
  - reflexivity.
  - destruct (str_continues c) eqn:Hc.
    + unfold str_continues in Hc. apply andb_true_iff in Hc. destruct Hc as [_ Hd].
      apply negb_true_iff in Hd. cbn [digit_runs_fit_aux]. rewrite Hd, usize_limit_pos.
      cbn [andb]. rewrite IH. destruct (span str_continues t) as [s r]. reflexivity.
    + reflexivity.
Qed.

Lemma vc_next_fit t :
  digit_runs_fit_aux 0 t = true ->
  match vc_next t with
  | None => t = []
  | Some (_, rest) => digit_runs_fit_aux 0 rest = true
  end.
Proof.
  destruct t as [|c t]; [reflexivity|]. cbn [vc_next digit_runs_fit_aux]. intros Hfit.
  destruct (c =? UNDERSCORE) eqn:Hu; [|destruct (is_ascii_digit c)].
  - apply N.eqb_eq in Hu. subst c. exact Hfit.
  - rewrite fit_span_digits in Hfit. apply andb_true_iff in Hfit.
    unfold parse_numeric_chunk, parse_usize. destruct (span is_ascii_digit t) as [s r].
    cbn [digits_value]. cbn [fst snd] in Hfit. rewrite (proj1 Hfit). exact (proj2 Hfit).
  - rewrite fit_span_str in Hfit.
    unfold parse_str_chunk. destruct (span str_continues t) as [s r]. exact Hfit.
Qed.

Lemma digit_runs_fit_cover t : digit_runs_fit t = true -> chunks_cover t = true.
Proof.
  unfold digit_runs_fit, chunks_cover. intros Hfit. apply eqb_text_spec. revert Hfit.
  apply (chunks_ind (fun t cs => digit_runs_fit_aux 0 t = true -> concat (map chunk_source cs) = t));
    clear t; intros t.
  - intros Hn Hfit. apply vc_next_fit in Hfit. rewrite Hn in Hfit. symmetry. exact Hfit.
  - intros ch rest Hn IH Hfit. apply vc_next_fit in Hfit. rewrite Hn in Hfit.
    cbn [map concat]. rewrite (IH Hfit). symmetry. exact (proj1 (vc_next_spec t ch rest Hn)).
Qed.

Lemma vs_eq_identity_partial a b :
  digit_runs_fit a = true -> digit_runs_fit b = true -> version_sort a b = Eq -> a = b.
Proof.
  intros Ha Hb. apply vs_eq_identity_cover; apply digit_runs_fit_cover; assumption.
Qed.

(* two distinct identifiers that version_sort ranks Equal: the numeric chunk
   18446744073709551616 = 2^64 does not fit usize, the chunk iterator ends
   there and the rest of the identifier is never looked at *)
Definition ovf_a : text :=
  [97; 49;56;52;52;54;55;52;52;48;55;51;55;48;57;53;53;49;54;49;54; 98].
Definition ovf_b : text :=
  [97; 49;56;52;52;54;55;52;52;48;55;51;55;48;57;53;53;49;54;49;54; 99].

Lemma ovf_distinct : ovf_a <> ovf_b.
Proof. intros H. apply eqb_text_spec in H. vm_compute in H. discriminate H. Qed.

Lemma ovf_equal : version_sort ovf_a ovf_b = Eq.
Proof. vm_compute. reflexivity. Qed.

Lemma vs_eq_identity_refuted : exists a b, a <> b /\ version_sort a b = Eq.
Proof. exists ovf_a, ovf_b. split; [exact ovf_distinct|exact ovf_equal]. Qed.

Lemma sort_names_is_sort_by l :
  Permutation l (sort_names l) /\ SortedBy version_sort (sort_names l)
  /\ StableWrt version_sort l (sort_names l).
Proof. apply (isort_is_sort_by vs_total_preorder). Qed.

Lemma sort_names_any_stable_sort l out :
  Permutation l out -> SortedBy version_sort out -> StableWrt version_sort l out ->
  out = sort_names l.
Proof. apply (any_stable_sort_agrees vs_total_preorder). Qed.

Lemma version_sort_order_insensitive l1 l2 :
  Permutation l1 l2 ->
  (forall x y, In x l1 -> In y l1 -> version_sort x y = Eq -> x = y) ->
  sort_names l1 = sort_names l2.
Proof. apply (sort_unique vs_total_preorder). Qed.

Lemma version_sort_order_insensitive_all_refuted :
  exists l1 l2, Permutation l1 l2 /\ NoDup l1 /\ sort_names l1 <> sort_names l2.
Proof.
  exists [ovf_a; ovf_b], [ovf_b; ovf_a].
  exact (order_sensitive_pair vs_total_preorder ovf_a ovf_b ovf_equal ovf_distinct).
Qed.

Lemma version_sort_order_insensitive_partial l1 l2 :
  Permutation l1 l2 -> forallb digit_runs_fit l1 = true -> sort_names l1 = sort_names l2.
Proof.
  intros Hp Hf. apply version_sort_order_insensitive; [exact Hp|].
  rewrite forallb_forall in Hf. intros x y Hx Hy.
  apply vs_eq_identity_partial; apply Hf; assumption.
Qed.

Lemma cmp_name_tp e : TotalPreorder (cmp_name e).
Proof.
  unfold cmp_name. destruct (se_le_2021 e); [exact str_total_preorder|exact vs_total_preorder].
Qed.

(* items_cmp as a lexicographic comparison: the kind, then the names in the
   order they are compared (the module name; the crate's original name and
   after it the alias, if the crate is renamed); a renamed crate comes after
   the unrenamed one as a longer list comes after its prefix *)
Definition item_names (i : item) : list text :=
  match it_kind i with
  | IMod => [it_ident i]
  | IExternCrate => match it_orig i with Some n => [n; it_ident i] | None => [it_ident i] end
  | IOther => []
  end.
Definition items_key_cmp (e : style_edition) : item -> item -> comparison :=
  cmp_then (cmp_on (fun i => kind_rank (it_kind i)) N.compare)
           (cmp_on item_names (cmp_lex (cmp_name e))).

Lemma items_key_cmp_tp e : TotalPreorder (items_key_cmp e).
Proof. unfold items_key_cmp. auto using cmp_name_tp with tp. Qed.

Lemma items_cmp_key e a b : items_cmp e a b = items_key_cmp e a b.
Proof.
  destruct a as [ka ia oa], b as [kb ib ob].
  unfold items_cmp, compare_items, items_key_cmp, cmp_then, cmp_on, item_names.
  cbn [it_kind it_ident it_orig].
  destruct ka, kb; cbn [kind_rank]; try reflexivity.
  - (* two mods *) cbn [cmp_lex]. destruct (cmp_name e ia ib); reflexivity.
  - (* two extern crates *) destruct oa as [na|], ob as [nb|]; cbn [cmp_lex].
    + destruct (cmp_name e na nb); [destruct (cmp_name e ia ib)|..]; reflexivity.
    + destruct (cmp_name e na ib); reflexivity.
    + destruct (cmp_name e ia nb); reflexivity.
    + destruct (cmp_name e ia ib); reflexivity.
Qed.

Lemma items_total_preorder e : TotalPreorder (items_cmp e).
Proof.
  exact (tp_pull (fun i => i) (items_key_cmp e) (items_cmp e) (items_cmp_key e) (items_key_cmp_tp e)).
Qed.

Definition reorderable_pair (a b : item) : bool :=
  match it_kind a, it_kind b with
  | IMod, IMod | IExternCrate, IExternCrate => true
  | _, _ => false
  end.

Lemma compare_items_agrees e a b c : compare_items e a b = Some c -> items_cmp e a b = c.
Proof. unfold items_cmp. intros ->. reflexivity. Qed.

Lemma compare_items_defined e a b :
  reorderable_pair a b = true <-> compare_items e a b = Some (items_cmp e a b).
Proof.
  unfold items_cmp, compare_items, reorderable_pair.
  destruct (it_kind a); destruct (it_kind b); split; intros H;
    try reflexivity; try discriminate H.
  - (* two extern crates, left to right *) destruct (cmp_name e _ _); try reflexivity.
    destruct (it_orig a); destruct (it_orig b); reflexivity.
Qed.

Lemma compare_items_laws e k :
  k <> IOther ->
  (forall a, it_kind a = k -> compare_items e a a = Some Eq)
  /\ (forall a b ca, it_kind a = k -> it_kind b = k ->
        compare_items e a b = Some ca -> compare_items e b a = Some (CompOpp ca))
  /\ (forall a b c, it_kind a = k -> it_kind b = k -> it_kind c = k ->
        compare_items e a b = Some Lt -> compare_items e b c = Some Lt ->
        compare_items e a c = Some Lt)
  /\ (forall a b c, it_kind a = k -> it_kind b = k -> it_kind c = k ->
        compare_items e a b = Some Eq -> compare_items e a c = compare_items e b c).
Proof.
  intros Hk.
  assert (Hdef : forall a b, it_kind a = k -> it_kind b = k ->
                   compare_items e a b = Some (items_cmp e a b)).
  { intros a b Ha Hb. apply compare_items_defined. unfold reorderable_pair.
    rewrite Ha, Hb. destruct k; [reflexivity..|elim Hk; reflexivity]. }
  pose proof (items_total_preorder e) as TP.
  split; [|split; [|split]].
  - intros a Ha. rewrite Hdef by assumption. f_equal. apply (tp_refl TP).
  - intros a b ca Ha Hb. rewrite !Hdef by assumption. intros [= <-]. f_equal. apply (tp_antisym TP).
  - intros a b c Ha Hb Hc. rewrite !Hdef by assumption. intros [= H1] [= H2]. f_equal.
    exact (tp_trans TP a b c H1 H2).
  - intros a b c Ha Hb Hc. rewrite !Hdef by assumption. intros [= H1]. f_equal.
    exact (tp_eq_cong TP a b c H1).
Qed.

Lemma sort_items_is_sort_by e l :
  Permutation l (sort_items e l) /\ SortedBy (items_cmp e) (sort_items e l)
  /\ StableWrt (items_cmp e) l (sort_items e l).
Proof. apply (isort_is_sort_by (items_total_preorder e)). Qed.

Lemma sort_items_any_stable_sort e l out :
  Permutation l out -> SortedBy (items_cmp e) out -> StableWrt (items_cmp e) l out ->
  out = sort_items e l.
Proof. apply (any_stable_sort_agrees (items_total_preorder e)). Qed.

Lemma items_order_insensitive e l1 l2 :
  Permutation l1 l2 ->
  (forall x y, In x l1 -> In y l1 -> items_cmp e x y = Eq -> x = y) ->
  sort_items e l1 = sort_items e l2.
Proof. apply (sort_unique (items_total_preorder e)). Qed.

(* an item as the parser builds it: a `mod` has no original name; other kinds
   never reach the comparator *)
Definition item_wf (i : item) : bool :=
  match it_kind i with
  | IMod => match it_orig i with None => true | Some _ => false end
  | IExternCrate => true
  | IOther => false
  end.
Definition item_names_fit (i : item) : bool :=
  digit_runs_fit (it_ident i)
  && match it_orig i with Some n => digit_runs_fit n | None => true end.

Lemma cmp_name_eq_identity e a b :
  (se_le_2021 e = true \/ (digit_runs_fit a = true /\ digit_runs_fit b = true)) ->
  cmp_name e a b = Eq -> a = b.
Proof.
  unfold cmp_name. intros H. destruct (se_le_2021 e).
  - apply cmp_text_eq.
  - destruct H as [H|[Ha Hb]]; [discriminate H|]. apply vs_eq_identity_partial; assumption.
Qed.

Lemma item_names_fit_all i :
  item_names_fit i = true -> Forall (fun x => digit_runs_fit x = true) (item_names i).
Proof.
  destruct i as [k id o]. unfold item_names_fit, item_names.
  cbn [it_kind it_ident it_orig]. rewrite andb_true_iff. intros [H1 H2].
  destruct k, o; repeat constructor; assumption.
Qed.

Lemma item_key_inj a b :
  item_wf a = true -> item_wf b = true ->
  kind_rank (it_kind a) = kind_rank (it_kind b) -> item_names a = item_names b -> a = b.
Proof.
  destruct a as [ka ia oa], b as [kb ib ob].
  unfold item_wf, item_names. cbn [it_kind it_ident it_orig]. intros Ha Hb Hk Hn.
  destruct ka, kb; try discriminate Hk.
  - (* two mods: neither has an original name *)
    destruct oa, ob; try discriminate Ha; try discriminate Hb. congruence.
  - (* two extern crates: the name lists have the same length *)
    destruct oa, ob; try discriminate Hn; congruence.
  - (* IOther is not well-formed *) discriminate Ha.
Qed.

Lemma items_eq_identity_partial e a b :
  (se_le_2021 e = true \/ (item_names_fit a = true /\ item_names_fit b = true)) ->
  item_wf a = true -> item_wf b = true -> items_cmp e a b = Eq -> a = b.
Proof.
  intros Hfit Ha Hb H. rewrite items_cmp_key in H.
  apply cmp_then_eq in H. destruct H as [Hk Hn]. unfold cmp_on in *.
  apply N.compare_eq in Hk. apply cmp_lex_eq_inv in Hn; [exact (item_key_inj a b Ha Hb Hk Hn)|].
  intros x y Hx Hy. apply cmp_name_eq_identity.
  destruct Hfit as [Hl|[Hfa Hfb]]; [left; exact Hl|right].
  apply item_names_fit_all in Hfa, Hfb. rewrite Forall_forall in Hfa, Hfb.
  split; [exact (Hfa x Hx)|exact (Hfb y Hy)].
Qed.

Definition ovf_item_a : item := MkItem IExternCrate ovf_a None.
Definition ovf_item_b : item := MkItem IExternCrate ovf_b None.

Lemma items_order_insensitive_all_refuted :
  exists l1 l2, Permutation l1 l2 /\ NoDup l1 /\ forallb item_wf l1 = true
                /\ sort_items SE2024 l1 <> sort_items SE2024 l2.
Proof.
  destruct (order_sensitive_pair (items_total_preorder SE2024) ovf_item_a ovf_item_b)
    as (Hp & Hn & Hs).
  - vm_compute. reflexivity.
  - intros H. apply (f_equal it_ident) in H. exact (ovf_distinct H).
  - exists [ovf_item_a; ovf_item_b], [ovf_item_b; ovf_item_a].
    split; [exact Hp|]. split; [exact Hn|]. split; [reflexivity|exact Hs].
Qed.

Lemma items_order_insensitive_partial e l1 l2 :
  Permutation l1 l2 -> forallb item_wf l1 = true ->
  (se_le_2021 e = true \/ forallb item_names_fit l1 = true) ->
  sort_items e l1 = sort_items e l2.
Proof.
  intros Hp Hw Hf. apply items_order_insensitive; [exact Hp|].
  rewrite forallb_forall in Hw. intros x y Hx Hy.
  apply items_eq_identity_partial; [|exact (Hw x Hx)|exact (Hw y Hy)].
  destruct Hf as [Hl|Hf]; [left; exact Hl|right].
  rewrite forallb_forall in Hf. split; apply Hf; assumption.
Qed.
