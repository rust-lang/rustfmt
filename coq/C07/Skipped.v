(* C07/Skipped.v — proofs about the recorded range of a skip-marked item (Model.v: range_recorded) *)
From V Require Import Base.Text C07.Model C07.Lemmas.
Open Scope N_scope.

Lemma site_okb_spec s : site_okb s = true <-> site_ok s.
Proof.
  unfold site_okb, site_ok. rewrite !andb_true_iff, !N.leb_le. tauto.
Qed.

(* the recorded range is exactly the output lines of the item from its first non-attribute line (or the line after the
   attributes) to its last line *)
Lemma skipped_range_exact_l s : site_ok s ->
  forall n, (fst (range_recorded s) <= n <= snd (range_recorded s)) <->
            (exists k, site_lo_src s <= k <= src_start s + body_nl s /\ n = out_line_of s k).
Proof.
  unfold site_ok, range_recorded, out_line_of, site_lo_src. cbn [fst snd]. intros Hok n. split.
  - intros [Ha Hb]. exists (n + src_start s - (out_before s + 1)). lia.
  - intros [k [[Ha Hb] ->]]. lia.
Qed.

Lemma skipped_range_pre_repair_refuted_l :
  (forall s, site_ok s -> (range_pre_repair s = range_recorded s <-> out_before s + 1 = src_start s)) /\
  (exists s k, site_ok s /\ site_lo_src s <= k <= src_start s + body_nl s /\
               ~ (fst (range_pre_repair s) <= out_line_of s k <= snd (range_pre_repair s))) /\
  (exists s n, site_ok s /\ n < out_line_of s (src_start s) /\ fst (range_pre_repair s) <= n <= snd (range_pre_repair s)).
Proof.
  unfold site_ok, range_pre_repair, range_recorded, out_line_of, site_lo_src. split; [|split].
  - (* before the repair the first line of the range was a SOURCE line: the ranges agree exactly when the item stands on
       the same line in source and output *)
    intros s Hok. split.
    + intros H. injection H as H. lia.
    + intros H. f_equal. lia.
  - (* the code before the item SHRANK while being formatted: a line of the skipped item falls outside the range (it
       was then reported) *)
    exists (MkSite 6 6 7 2 1), 8. cbn [src_start attrs_end first_line body_nl out_before fst snd]. lia.
  - (* it GREW: a formatted line before the item is inside the range (never checked) *)
    exists (MkSite 2 2 3 2 4), 4. cbn [src_start attrs_end first_line body_nl out_before fst snd]. lia.
Qed.

(* with the scanner: no line of the item's body is ever reported, wherever the item moved to *)
Lemma skipped_item_lines_never_reported_l cfg skipped sel (st : stream) errs s n k :
  site_ok s -> In (range_recorded s) skipped ->
  scan cfg skipped sel st = Some errs -> In (n, k) errs ->
  forall j, site_lo_src s <= j <= src_start s + body_nl s -> n <> out_line_of s j.
Proof.
  intros Hok Hin Hs He j Hj Heq. rewrite (surjective_pairing (range_recorded s)) in Hin.
  apply (skipped_never_l cfg skipped sel st errs n k Hs He _ _ Hin).
  apply (skipped_range_exact_l s Hok). exists j. split; [exact Hj | exact Heq].
Qed.
