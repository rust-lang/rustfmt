(* C07/Props.v — the theorems of property C07 (line-width / trailing-whitespace
   diagnostics).  Vocabulary (Model.v): tlines s = the LF-terminated lines of
   the stream with CRs dropped, each as (body, kind of its LF); width,
   ends_blank, has_string, eff_width, exempt, in_skipped, reportable.
   Offending (Lemmas.v) is the declarative specification.  scan returns None
   exactly when the unchecked `line_len -= 1` underflows (scan_none_iff). *)
From V Require Import C07.Skipped.
From V Require Import Base.Text C07.Model C07.Lemmas.
From Coq Require Import Sorted.
Open Scope N_scope.

(* spec sanity: tlines/trest split the CR-stripped stream at its LFs *)
Theorem tlines_split : forall s : stream,
  strip_cr s = concat (map (fun bl => fst bl ++ [(snd bl, LF)]) (tlines s)) ++ trest s
  /\ (forall b k p, In (b, k) (tlines s) -> In p b -> snd p <> LF /\ snd p <> CR)
  /\ (forall p, In p (trest s) -> snd p <> LF /\ snd p <> CR).
Proof. exact tlines_split_l. Qed.
Print Assumptions tlines_split.

(* every offending line is reported and nothing else is (both directions) *)
Theorem scan_exact : forall cfg skipped sel (s : stream) errs,
  scan cfg skipped sel s = Some errs ->
  forall n k, In (n, k) errs <-> Offending cfg skipped sel s n k.
Proof. exact scan_exact_l. Qed.
Print Assumptions scan_exact.

(* the scan fails (underflow of line_len -= 1) exactly on a selected line of zero width ending blank *)
Theorem scan_none_iff : forall cfg skipped sel (s : stream),
  scan cfg skipped sel s = None <->
  exists n body lfk,
    1 <= n /\ nth_error (tlines s) (N.to_nat (n - 1)) = Some (body, lfk) /\
    sel n = true /\ ends_blank body = true /\ width cfg body = 0.
Proof. exact scan_none_iff_l. Qed.
Print Assumptions scan_none_iff.

(* with tab_spaces > 0 the scan always completes *)
Theorem scan_total : forall cfg skipped sel (s : stream),
  tab_spaces cfg <> 0 -> exists errs, scan cfg skipped sel s = Some errs.
Proof. exact scan_total_l. Qed.
Print Assumptions scan_total.

(* reported 1-based line numbers are non-decreasing and within 1 .. number of lines *)
Theorem scan_sorted : forall cfg skipped sel (s : stream) errs,
  scan cfg skipped sel s = Some errs ->
  StronglySorted N.le (map fst errs) /\
  forall n k, In (n, k) errs -> 1 <= n <= N.of_nat (length (tlines s)).
Proof. exact scan_sorted_l. Qed.
Print Assumptions scan_sorted.

(* no line outside the selected line ranges is reported *)
Theorem selected_only : forall cfg skipped sel (s : stream) errs n k,
  scan cfg skipped sel s = Some errs -> In (n, k) errs -> sel n = true.
Proof. exact selected_only_l. Qed.
Print Assumptions selected_only.

(* no line of skipped code is reported *)
Theorem skipped_never : forall cfg skipped sel (s : stream) errs n k,
  scan cfg skipped sel s = Some errs -> In (n, k) errs ->
  forall lo hi, In (lo, hi) skipped -> ~ (lo <= n <= hi).
Proof. exact skipped_never_l. Qed.
Print Assumptions skipped_never.

(* only TrailingWhitespace and LineOverflow(_, max_width) are ever reported *)
Theorem scan_kinds : forall cfg skipped sel (s : stream) errs n k,
  scan cfg skipped sel s = Some errs -> In (n, k) errs ->
  k = TrailingWhitespace \/ exists w, k = LineOverflow w (max_width cfg).
Proof. exact scan_kinds_l. Qed.
Print Assumptions scan_kinds.

(* an over-wide line: when it is reported as too wide, when only as ending blank, when not at all *)
Theorem overflow_reported_iff : forall cfg skipped sel (s : stream) errs n body lfk,
  scan cfg skipped sel s = Some errs ->
  1 <= n -> nth_error (tlines s) (N.to_nat (n - 1)) = Some (body, lfk) ->
  max_width cfg < width cfg body ->
  (forall w m, In (n, LineOverflow w m) errs <->
     reportable cfg skipped sel n body lfk = true /\ error_on_line_overflow cfg = true /\
     w = eff_width cfg body /\ m = max_width cfg /\
     (ends_blank body = true -> max_width cfg + 1 < width cfg body))
  /\ (In (n, TrailingWhitespace) errs <->
      reportable cfg skipped sel n body lfk = true /\ ends_blank body = true)
  /\ ((forall k, ~ In (n, k) errs) <->
      reportable cfg skipped sel n body lfk = false
      \/ (ends_blank body = false /\ error_on_line_overflow cfg = false)).
Proof. exact overflow_reported_iff_l. Qed.
Print Assumptions overflow_reported_iff.

(* first sentence: both options on: a terminated line is reported iff selected, not skipped, and over-wide or ending blank *)
Theorem both_on_exact : forall cfg skipped sel (s : stream) errs,
  error_on_line_overflow cfg = true -> error_on_unformatted cfg = true ->
  scan cfg skipped sel s = Some errs ->
  forall n, (exists k, In (n, k) errs) <->
    exists body lfk,
      1 <= n /\ nth_error (tlines s) (N.to_nat (n - 1)) = Some (body, lfk) /\
      sel n = true /\ in_skipped skipped n = false /\
      (max_width cfg < width cfg body \/ ends_blank body = true).
Proof. exact both_on_exact_l. Qed.
Print Assumptions both_on_exact.

(* second sentence: error_on_unformatted off removes exactly the reports on lines whose LF is of comment kind or that contain a string-kind char *)
Theorem eou_off_exact : forall cfg skipped sel (s : stream) errs_off errs_on,
  error_on_unformatted cfg = false ->
  scan cfg skipped sel s = Some errs_off ->
  scan (cfg_eou_on cfg) skipped sel s = Some errs_on ->
  forall n k, In (n, k) errs_off <->
    In (n, k) errs_on /\
    exists body lfk, nth_error (tlines s) (N.to_nat (n - 1)) = Some (body, lfk) /\
                     exempt body lfk = false.
Proof. exact eou_off_exact_l. Qed.
Print Assumptions eou_off_exact.

(* second sentence: a trailing blank on a non-exempt selected unskipped line is reported whatever the two options are *)
Theorem trailing_every_setting : forall cfg skipped sel (s : stream) errs n body lfk,
  scan cfg skipped sel s = Some errs ->
  1 <= n -> nth_error (tlines s) (N.to_nat (n - 1)) = Some (body, lfk) ->
  sel n = true -> in_skipped skipped n = false ->
  exempt body lfk = false -> ends_blank body = true ->
  In (n, TrailingWhitespace) errs.
Proof. exact trailing_every_setting_l. Qed.
Print Assumptions trailing_every_setting.

(* a reported trailing blank sets has_operational_errors: exit status 1 with or without --check, files or stdin *)
Theorem trailing_exits_one : forall cfg skipped sel (s : stream) es kept n f sess check,
  format_lines cfg skipped sel s = Some (es, kept) ->
  In (n, TrailingWhitespace) (map (fun e => (fe_line e, fe_kind e)) es) ->
  exit_code (flags_add sess (track_errors f es)) check = 1
  /\ exit_code_stdin (flags_add sess (track_errors f es)) = 1.
Proof. exact trailing_exits_one_l. Qed.
Print Assumptions trailing_exits_one.

(* the same for a reported over-wide line *)
Theorem overflow_exits_one : forall cfg skipped sel (s : stream) es kept n w m f sess check,
  format_lines cfg skipped sel s = Some (es, kept) ->
  In (n, LineOverflow w m) (map (fun e => (fe_line e, fe_kind e)) es) ->
  exit_code (flags_add sess (track_errors f es)) check = 1
  /\ exit_code_stdin (flags_add sess (track_errors f es)) = 1.
Proof. exact overflow_exits_one_l. Qed.
Print Assumptions overflow_exits_one.

(* is_comment / is_string recorded with each error (they only select the message suffix) *)
Theorem report_flags : forall cfg skipped sel (s : stream) es kept e,
  format_lines cfg skipped sel s = Some (es, kept) -> In e es ->
  exists body lfk,
    1 <= fe_line e /\
    nth_error (tlines s) (N.to_nat (fe_line e - 1)) = Some (body, lfk) /\
    fe_is_comment e = is_comment lfk /\
    fe_is_string e = match fe_kind e with
                     | TrailingWhitespace => is_string lfk
                     | _ => has_string body
                     end.
Proof. exact report_flags_l. Qed.
Print Assumptions report_flags.

(* the truncation after the scan keeps all but trailing_lfs - 1 chars *)
Theorem truncate_spec : forall cfg skipped sel (s : stream) es kept,
  format_lines cfg skipped sel s = Some (es, kept) ->
  kept = if 1 <? trailing_lfs s
         then N.of_nat (length s) - trailing_lfs s + 1
         else N.of_nat (length s).
Proof. exact truncate_spec_l. Qed.
Print Assumptions truncate_spec.

(* GAP: a last line without LF is never checked *)
Theorem unterminated_line_gap :
  exists s,
    tlines s = [] /\
    max_width (MkCfg 2 4 true true) < width (MkCfg 2 4 true true) (trest s) /\
    ends_blank (trest s) = true /\
    scan (MkCfg 2 4 true true) [] all_lines s = Some [].
Proof. exact unterminated_line_gap_l. Qed.
Print Assumptions unterminated_line_gap.

(* GAP: a trailing blank is discounted as one column whatever its width (trailing TAB) *)
Theorem trailing_blank_discount_gap :
  exists s body lfk,
    tlines s = [(body, lfk)] /\
    width (MkCfg 7 4 true true) body = 8 /\
    scan (MkCfg 7 4 true true) [] all_lines s = Some [(1, TrailingWhitespace)] /\
    scan (MkCfg 5 4 true true) [] all_lines s
      = Some [(1, TrailingWhitespace); (1, LineOverflow 7 5)].
Proof. exact trailing_blank_discount_gap_l. Qed.
Print Assumptions trailing_blank_discount_gap.

(* GAP: error_on_unformatted off, a line made only of a block comment closed on that line is still reported *)
Theorem block_comment_line_gap :
  exists s body lfk,
    tlines s = [(body, lfk)] /\
    forallb (fun p => is_comment (fst p)) body = true /\
    scan (MkCfg 4 4 true false) [] all_lines s = Some [(1, LineOverflow 8 4)].
Proof. exact block_comment_line_gap_l. Qed.
Print Assumptions block_comment_line_gap.

(* GAP: error_on_unformatted off, over-wide code followed by a line comment is exempt *)
Theorem code_before_line_comment_gap :
  exists s body lfk,
    tlines s = [(body, lfk)] /\
    firstn 8 body = nrm [97; 97; 97; 97; 97; 97; 97; 97] /\
    scan (MkCfg 4 4 true false) [] all_lines s = Some [] /\
    scan (MkCfg 4 4 true true) [] all_lines s = Some [(1, LineOverflow 11 4)].
Proof. exact code_before_line_comment_gap_l. Qed.
Print Assumptions code_before_line_comment_gap.

(* GAP: tab_spaces = 0 and a selected line of TABs only: line_len -= 1 underflows *)
Theorem line_len_underflow_gap :
  scan (MkCfg 100 0 false false) [] all_lines (nrm [9; 10]) = None.
Proof. exact line_len_underflow_gap_l. Qed.
Print Assumptions line_len_underflow_gap.

(* GAP (outside the wording of C07): CRs do not reset newline_count, the truncation can leave a lone CR *)
Theorem truncate_crlf_gap :
  format_lines (MkCfg 100 4 true true) [] all_lines (nrm [97; 13; 10; 13; 10]) = Some ([], 4)
  /\ firstn 4 [97; 13; 10; 13; 10] = [97; 13; 10; 13].
Proof. exact truncate_crlf_gap_l. Qed.
Print Assumptions truncate_crlf_gap.

(* the range recorded for a skip-marked item (push_skipped_with_span, after the repair) is exactly the OUTPUT lines of the
   item from its first non-attribute line to its last line, wherever the code before it moved the item to *)
Theorem skipped_range_exact : forall s : skip_site, site_ok s ->
  forall n, (fst (range_recorded s) <= n <= snd (range_recorded s)) <->
            (exists k, site_lo_src s <= k <= src_start s + body_nl s /\ n = out_line_of s k).
Proof. exact skipped_range_exact_l. Qed.
Print Assumptions skipped_range_exact.

(* hence no line of a skip-marked item is ever reported, for every stream, configuration and position of the item *)
Theorem skipped_item_lines_never_reported : forall cfg skipped sel (st : stream) errs (s : skip_site) n k,
  site_ok s -> In (range_recorded s) skipped ->
  scan cfg skipped sel st = Some errs -> In (n, k) errs ->
  forall j, site_lo_src s <= j <= src_start s + body_nl s -> n <> out_line_of s j.
Proof. exact skipped_item_lines_never_reported_l. Qed.
Print Assumptions skipped_item_lines_never_reported.

(* the pre-repair range (first line in SOURCE coordinates) agreed with it exactly when the item did not move; when the code
   before it shrank a line of the item fell outside the range, when it grew a formatted line before the item fell inside:
   the genuine defect repaired in /repo *)
Theorem skipped_range_pre_repair_refuted :
  (forall s, site_ok s -> (range_pre_repair s = range_recorded s <-> out_before s + 1 = src_start s)) /\
  (exists s k, site_ok s /\ site_lo_src s <= k <= src_start s + body_nl s /\
               ~ (fst (range_pre_repair s) <= out_line_of s k <= snd (range_pre_repair s))) /\
  (exists s n, site_ok s /\ n < out_line_of s (src_start s) /\ fst (range_pre_repair s) <= n <= snd (range_pre_repair s)).
Proof. exact skipped_range_pre_repair_refuted_l. Qed.
Print Assumptions skipped_range_pre_repair_refuted.
