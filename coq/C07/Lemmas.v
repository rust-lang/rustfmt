(* C07/Lemmas.v — specification (Offending) and the proofs about the scanner, the report flags
   and the truncation; those about the range of a skip-marked item are in Skipped.v. *)
From V Require Import Base.Text C07.Model.
From Coq Require Import Sorted.
Open Scope N_scope.
Arguments N.add : simpl never.
Arguments N.sub : simpl never.
Arguments N.mul : simpl never.
Arguments N.ltb : simpl never.
Arguments N.leb : simpl never.
Arguments N.eqb : simpl never.

Lemma in_if_single {A} (c : bool) (x e : A) :
  In e (if c then [x] else []) <-> c = true /\ e = x.
Proof.
  destruct c; cbn [In]; split.
  - intros [<-|[]]. auto.
  - intros [_ ->]. auto.
  - intros [].
  - intros [H _]. discriminate.
Qed.

Lemma map_if_single {A B} (f : A -> B) (c : bool) (x : A) :
  map f (if c then [x] else []) = if c then [f x] else [].
Proof. destruct c; reflexivity. Qed.

(* the scanner's reports are a flat_map over the lines numbered from 1 (scan_lines) *)
Fixpoint numbered {A} (n : N) (l : list A) : list (N * A) :=
  match l with
  | [] => []
  | x :: l' => (n, x) :: numbered (n + 1) l'
  end.

Lemma in_numbered {A} (l : list A) : forall n0 n x,
  In (n, x) (numbered n0 l) <-> n0 <= n /\ nth_error l (N.to_nat (n - n0)) = Some x.
Proof.
  induction l as [|y l IH]; intros n0 n x; cbn [numbered In].
  - split; [contradiction|]. intros [_ H]. destruct (N.to_nat (n - n0)); discriminate.
  - rewrite IH. split.
    + intros [H|[Hle H]].
      * injection H as <- <-. rewrite N.sub_diag. split; [apply N.le_refl | reflexivity].
      * replace (N.to_nat (n - n0)) with (S (N.to_nat (n - (n0 + 1)))) by lia.
        split; [lia | exact H].
    + intros [Hle H]. destruct (N.eq_dec n n0) as [->|Hne].
      * rewrite N.sub_diag in H. injection H as ->. left. reflexivity.
      * replace (N.to_nat (n - n0)) with (S (N.to_nat (n - (n0 + 1)))) in H by lia.
        right. split; [lia | exact H].
Qed.

(* blocks whose keys all equal the block's number come out sorted *)
Lemma ss_const_app (n : N) (blk rest : list N) :
  (forall x, In x blk -> x = n) -> Forall (N.le n) rest ->
  StronglySorted N.le rest -> StronglySorted N.le (blk ++ rest).
Proof.
  induction blk as [|x blk IH]; intros Hb Hr Hs; cbn [app]; [exact Hs|].
  constructor.
  - apply IH; [|exact Hr | exact Hs]. intros y Hy. apply Hb. right. exact Hy.
  - rewrite (Hb x (or_introl eq_refl)). apply Forall_app. split; [|exact Hr].
    apply Forall_forall. intros y Hy. rewrite (Hb y (or_intror Hy)). apply N.le_refl.
Qed.

Lemma numbered_blocks_sorted {A B} (f : N * A -> list B) (g : B -> N) :
  (forall l e, In e (f l) -> g e = fst l) ->
  forall l n0, StronglySorted N.le (map g (flat_map f (numbered n0 l))).
Proof.
  intros Hg. induction l as [|x l IH]; intros n0; cbn [numbered flat_map map].
  - constructor.
  - rewrite map_app. apply (ss_const_app n0).
    + intros y Hy. apply in_map_iff in Hy. destruct Hy as [e [<- He]]. exact (Hg _ _ He).
    + apply Forall_forall. intros y Hy. apply in_map_iff in Hy. destruct Hy as [e [<- He]].
      apply in_flat_map in He. destruct He as [[n z] [Hl He]].
      rewrite (Hg _ _ He). apply in_numbered in Hl. cbn [fst]. lia.
    + apply IH.
Qed.

(* The declarative specification.  Line n (1-based) of the text is the n-th
   LF-terminated line of the stream with its CRs removed; `body` is its
   content, `lfk` the kind of its LF. *)
Definition Offending (cfg : config) (skipped : list (N * N)) (sel : N -> bool)
           (s : stream) (n : N) (k : error_kind) : Prop :=
  exists body lfk,
    1 <= n /\ nth_error (tlines s) (N.to_nat (n - 1)) = Some (body, lfk) /\
    sel n = true /\ in_skipped skipped n = false /\
    (exempt body lfk = true -> error_on_unformatted cfg = true) /\
    match k with
    | TrailingWhitespace => ends_blank body = true
    | LineOverflow w m =>
        w = eff_width cfg body /\ m = max_width cfg /\ max_width cfg < w /\
        error_on_line_overflow cfg = true
    | _ => False
    end.

(* cfg with error_on_unformatted switched on *)
Definition cfg_eou_on (cfg : config) : config :=
  MkCfg (max_width cfg) (tab_spaces cfg) (error_on_line_overflow cfg) true.

(* for the witnesses: every line selected; a text all of kind Normal *)
Definition all_lines : N -> bool := fun _ => true.
Definition nrm (t : text) : stream := map (fun c => (Normal, c)) t.

Section Proofs.
Variable cfg : config.
Variable skipped : list (N * N).
Variable sel : N -> bool.

Notation width := (width cfg).
Notation eff_width := (eff_width cfg).
Notation in_skipped := (in_skipped skipped).
Notation reportable := (reportable cfg skipped sel).
Notation eou := (error_on_unformatted cfg).
Notation eol := (error_on_line_overflow cfg).
Notation maxw := (max_width cfg).

(* Offending in pieces: the line, the middle three conjuncts (= reportable), the last one *)
Definition LineAt (s : stream) (n : N) (b : stream) (lfk : kind) : Prop :=
  1 <= n /\ nth_error (tlines s) (N.to_nat (n - 1)) = Some (b, lfk).

Lemma reportable_iff (n : N) (b : stream) (lfk : kind) :
  reportable n b lfk = true <->
  sel n = true /\ in_skipped n = false /\ (exempt b lfk = true -> eou = true).
Proof.
  unfold Model.reportable. rewrite !andb_true_iff, negb_true_iff.
  change (if exempt b lfk then eou else true) with (implb (exempt b lfk) eou).
  rewrite implb_true_iff. tauto.
Qed.

Lemma in_skipped_iff (n : N) :
  in_skipped n = true <-> exists lo hi, In (lo, hi) skipped /\ lo <= n <= hi.
Proof.
  unfold Model.in_skipped. rewrite existsb_exists. split.
  - intros [[lo hi] [Hin Hc]]. cbn [fst snd] in Hc.
    rewrite andb_true_iff, !N.leb_le in Hc. exists lo, hi. auto.
  - intros [lo [hi [Hin Hc]]]. exists (lo, hi). split; [exact Hin|].
    cbn [fst snd]. rewrite andb_true_iff, !N.leb_le. exact Hc.
Qed.

Definition kind_ok (b : stream) (k : error_kind) : Prop :=
  match k with
  | TrailingWhitespace => ends_blank b = true
  | LineOverflow w m => w = eff_width b /\ m = maxw /\ maxw < w /\ eol = true
  | _ => False
  end.

Lemma Offending_iff (s : stream) (n : N) (k : error_kind) :
  Offending cfg skipped sel s n k <->
  exists b lfk, LineAt s n b lfk /\ reportable n b lfk = true /\ kind_ok b k.
Proof.
  unfold Offending, LineAt, kind_ok.
  split; intros (b & lfk & Hx); exists b, lfk; rewrite reportable_iff in *; tauto.
Qed.

Lemma kind_ok_iff (b : stream) (k : error_kind) :
  kind_ok b k <->
  (k = TrailingWhitespace /\ ends_blank b = true) \/
  (k = LineOverflow (eff_width b) maxw /\ maxw < eff_width b /\ eol = true).
Proof.
  split.
  - destruct k as [w m| | | | | | | | |]; try contradiction.
    + intros (-> & -> & H). right. split; [reflexivity | exact H].
    + intros H. left. split; [reflexivity | exact H].
  - intros [[-> H] | (-> & H)]; cbn [kind_ok]; auto.
Qed.

(* width, not eff_width: the column discounted matters only on a line that ends blank, which is reported anyway *)
Lemma kind_ok_ex (b : stream) :
  (exists k, kind_ok b k) <-> ends_blank b || eol && (maxw <? width b) = true.
Proof.
  rewrite orb_true_iff, andb_true_iff, N.ltb_lt. split.
  - intros [k Hk]. apply kind_ok_iff in Hk. destruct Hk as [[_ Hb] | (_ & Hlt & Hl)]; [left; exact Hb | right].
    split; [exact Hl | exact (N.lt_le_trans _ _ _ Hlt (N.le_sub_l _ _))].
  - intros Hor. destruct (ends_blank b) eqn:Hb; [exists TrailingWhitespace; exact Hb|].
    destruct Hor as [Hd | [Hl Hw]]; [discriminate|].
    exists (LineOverflow (eff_width b) maxw). cbn [kind_ok]. unfold Model.eff_width.
    rewrite Hb, N.sub_0_r. auto.
Qed.

Lemma width_app (a b : stream) : width (a ++ b) = width a + width b.
Proof.
  induction a as [|[k c] a IH]; cbn [app Model.width].
  - rewrite N.add_0_l. reflexivity.
  - rewrite IH, N.add_assoc. reflexivity.
Qed.

Lemma ends_blank_snoc (b : stream) (k : kind) (c : char) :
  ends_blank (b ++ [(k, c)]) = is_whitespace c.
Proof. unfold ends_blank. rewrite rev_unit. reflexivity. Qed.

Lemma has_string_snoc (b : stream) (k : kind) (c : char) :
  has_string (b ++ [(k, c)]) = (if is_string k then true else has_string b).
Proof.
  unfold has_string. rewrite existsb_app. cbn [existsb fst].
  rewrite orb_false_r. destruct (is_string k); [apply orb_true_r | apply orb_false_r].
Qed.

Lemma ends_blank_nonempty (b : stream) : ends_blank b = true -> b <> [].
Proof. intros H ->. cbn in H. discriminate. Qed.

Lemma width_pos (b : stream) : tab_spaces cfg <> 0 -> b <> [] -> width b <> 0.
Proof.
  intros Ht Hb. destruct b as [|[k c] b]; [congruence|].
  cbn [Model.width]. unfold cwidth. destruct (c =? TAB); lia.
Qed.

(* new_line as a function of the fields it reads: whether `line_len -= 1`
   underflows, and otherwise the errors it pushes *)
Definition underflow (fline lws : bool) (len : N) : bool := fline && lws && (len =? 0).

Definition pushed (fline lws : bool) (len : N) (hs : bool) (n : N) (k : kind) : list ferr :=
  let rep := fline && negb (in_skipped n) && (if is_comment k || hs then eou else true) in
  let w := len - (if lws then 1 else 0) in
  (if lws && rep then [MkErr n TrailingWhitespace (is_comment k) (is_string k)] else [])
  ++ (if rep && (eol && (maxw <? w)) then [MkErr n (LineOverflow w maxw) (is_comment k) hs] else []).

(* what the two checks of new_line share of the decision to report *)
Definition may_report (st : fl) (k : kind) : bool :=
  negb (is_skipped_line skipped st) && (if is_comment k || has_strlit st then eou else true).

Lemma report_trailing (st : fl) (k : kind) :
  should_report_error cfg st k TrailingWhitespace && negb (is_skipped_line skipped st) =
  may_report st k.
Proof.
  unfold should_report_error. cbn [ek_is_comment]. rewrite orb_false_r. apply andb_comm.
Qed.

Lemma report_overflow (st : fl) (k : kind) (c : bool) (a b : N) :
  c && negb (is_skipped_line skipped st) && should_report_error cfg st k (LineOverflow a b) =
  may_report st k && (eol && c).
Proof.
  unfold should_report_error, may_report. cbn [ek_is_comment]. rewrite orb_false_r.
  destruct c, (is_skipped_line skipped st), eol, (if is_comment k || has_strlit st then eou else true);
    reflexivity.
Qed.

Lemma push_if (c : bool) (lws : bool) (len n nlc : N) (errs : list ferr) (hs fline : bool)
      (ek : error_kind) (a b : bool) :
  (if c then push_err (MkFL lws len n nlc errs hs fline) ek a b
   else MkFL lws len n nlc errs hs fline)
  = MkFL lws len n nlc (errs ++ if c then [MkErr n ek a b] else []) hs fline.
Proof. destruct c; [reflexivity | rewrite app_nil_r; reflexivity]. Qed.

(* reduces the projections of an explicit MkFL *)
Ltac cbn_fl := cbn [last_was_space line_len has_strlit cur_line newline_count errors format_line].

Lemma new_line_eq (st : fl) (k : kind) :
  new_line cfg skipped sel st k =
  if underflow (format_line st) (last_was_space st) (line_len st) then None
  else Some (MkFL false 0 (cur_line st + 1) (newline_count st + 1)
                  (errors st ++ pushed (format_line st) (last_was_space st) (line_len st)
                                       (has_strlit st) (cur_line st) k)
                  false (sel (cur_line st + 1))).
Proof.
  destruct st as [lws len n nlc errs hs fline]. unfold new_line, underflow, pushed. cbn_fl.
  destruct fline, lws; cbn [andb app].
  - (* selected, ends blank *)
    unfold trailing_check. cbn_fl. rewrite report_trailing, push_if. cbn_fl.
    destruct (len =? 0); [reflexivity|].
    unfold set_line_len, overflow_check. cbn_fl. rewrite report_overflow, push_if. cbn_fl.
    rewrite <- app_assoc. reflexivity.
  - (* selected, does not end blank *)
    unfold trailing_check, overflow_check. cbn_fl. rewrite report_overflow, push_if. cbn_fl.
    rewrite N.sub_0_r. reflexivity.
  - (* not selected *) rewrite app_nil_r. reflexivity.
  - rewrite app_nil_r. reflexivity.
Qed.

Definition line_underflow '((n, (b, k)) : N * (stream * kind)) : bool :=
  underflow (sel n) (ends_blank b) (width b).
Definition line_report '((n, (b, k)) : N * (stream * kind)) : list ferr :=
  pushed (sel n) (ends_blank b) (width b) (has_string b) n k.

(* the state describes the current line, of which cur holds the chars read so far, last first *)
Record tracks (st : fl) (cur : stream) : Prop := {
  tr_blank : last_was_space st = ends_blank (rev cur);
  tr_width : line_len st = width (rev cur);
  tr_string : has_strlit st = has_string (rev cur);
  tr_sel : format_line st = sel (cur_line st) }.

Lemma iterate_lines (s : stream) : forall (cur : stream) (st : fl),
  tracks st cur ->
  option_map errors (iterate cfg skipped sel st s) =
  let ls := numbered (cur_line st) (lines_aux cur (strip_cr s)) in
  if existsb line_underflow ls then None else Some (errors st ++ flat_map line_report ls).
Proof.
  induction s as [|[k c] s IH]; intros cur st Hst.
  - cbn. rewrite app_nil_r. reflexivity.
  - cbn [iterate strip_cr filter snd]. fold (strip_cr s).
    destruct (is_cr c); cbn [negb].
    + apply IH. exact Hst.
    + cbn [lines_aux]. destruct (is_lf c).
      * rewrite new_line_eq. destruct Hst as [-> -> -> ->].
        cbn [numbered existsb flat_map line_underflow line_report].
        destruct (underflow _ _ _); [reflexivity|]. cbn [orb].
        rewrite IH with (cur := []) by (split; reflexivity). cbn [cur_line errors].
        destruct (existsb _ _); [reflexivity|]. rewrite app_assoc. reflexivity.
      * rewrite IH with (cur := (k, c) :: cur); [reflexivity|].
        destruct Hst as [Hb Hw Hs Hf]. split; unfold char_step; cbn_fl; cbn [rev].
        -- symmetry. apply ends_blank_snoc.
        -- rewrite width_app, Hw. cbn [Model.width]. rewrite N.add_0_r. reflexivity.
        -- rewrite has_string_snoc, Hs. reflexivity.
        -- exact Hf.
Qed.

Definition numbered_lines (s : stream) : list (N * (stream * kind)) := numbered 1 (tlines s).

Lemma format_lines_errors (s : stream) :
  option_map fst (format_lines cfg skipped sel s) =
  if existsb line_underflow (numbered_lines s) then None
  else Some (flat_map line_report (numbered_lines s)).
Proof.
  unfold format_lines, numbered_lines, tlines.
  pose proof (iterate_lines s [] (fl_new sel)) as H. cbn [cur_line errors fl_new app] in H.
  rewrite <- H by (split; reflexivity).
  destruct (iterate cfg skipped sel (fl_new sel) s); reflexivity.
Qed.

Lemma scan_lines (s : stream) :
  scan cfg skipped sel s =
  if existsb line_underflow (numbered_lines s) then None
  else Some (flat_map (fun l => map (fun e => (fe_line e, fe_kind e)) (line_report l)) (numbered_lines s)).
Proof.
  unfold scan. pose proof (format_lines_errors s) as H.
  destruct (format_lines cfg skipped sel s) as [[es kept]|], (existsb line_underflow (numbered_lines s));
    try discriminate; [|reflexivity].
  injection H as ->. rewrite !flat_map_concat_map, concat_map, map_map. reflexivity.
Qed.

Lemma in_numbered_lines (s : stream) (n : N) (b : stream) (lfk : kind) :
  In (n, (b, lfk)) (numbered_lines s) <-> LineAt s n b lfk.
Proof. apply in_numbered. Qed.

Lemma in_line_report (n : N) (b : stream) (lfk : kind) (n' : N) (k : error_kind) :
  In (n', k) (map (fun e => (fe_line e, fe_kind e)) (line_report (n, (b, lfk)))) <->
  n' = n /\ reportable n b lfk = true /\ kind_ok b k.
Proof.
  unfold line_report, pushed.
  change (sel n && negb (in_skipped n) && _) with (reportable n b lfk).
  change (width b - _) with (eff_width b).
  rewrite map_app, in_app_iff, !map_if_single, !in_if_single. cbn [fe_line fe_kind].
  (* the two singletons of `pushed` are the two disjuncts of kind_ok_iff *)
  rewrite !pair_equal_spec, kind_ok_iff, !andb_true_iff, N.ltb_lt. tauto.
Qed.

Lemma line_report_flags (n : N) (b : stream) (lfk : kind) (e : ferr) :
  In e (line_report (n, (b, lfk))) ->
  fe_line e = n /\ fe_is_comment e = is_comment lfk /\
  fe_is_string e = match fe_kind e with
                   | TrailingWhitespace => is_string lfk
                   | _ => has_string b
                   end.
Proof.
  unfold line_report, pushed. rewrite in_app_iff, !in_if_single.
  intros [[_ ->] | [_ ->]]; auto.
Qed.

Lemma scan_in (s : stream) (errs : list (N * error_kind)) :
  scan cfg skipped sel s = Some errs ->
  forall n k, In (n, k) errs <->
    exists b lfk, LineAt s n b lfk /\ reportable n b lfk = true /\ kind_ok b k.
Proof.
  rewrite scan_lines. intros H n k.
  destruct (existsb _ _); [discriminate|]. injection H as <-.
  rewrite in_flat_map. split.
  - intros [[n' [b lfk]] [Hl Hin]]. apply in_line_report in Hin. destruct Hin as [-> Hr].
    exists b, lfk. split; [apply in_numbered_lines; exact Hl | exact Hr].
  - intros (b & lfk & Hl & Hr). exists (n, (b, lfk)).
    split; [apply in_numbered_lines; exact Hl | apply in_line_report; split; [reflexivity | exact Hr]].
Qed.

(* the line numbered n is unique, so membership can be read off that line *)
Lemma reported_at (s : stream) (errs : list (N * error_kind)) (n : N) (b : stream) (lfk : kind) :
  scan cfg skipped sel s = Some errs -> LineAt s n b lfk ->
  forall k, In (n, k) errs <-> reportable n b lfk = true /\ kind_ok b k.
Proof.
  intros H [Hn1 Hn] k. rewrite (scan_in _ _ H). split.
  - intros (b' & lfk' & [_ Hn'] & Hr). rewrite Hn in Hn'. injection Hn' as <- <-. exact Hr.
  - intros Hr. exists b, lfk. split; [split; assumption | exact Hr].
Qed.

Lemma some_reported_at (s : stream) (errs : list (N * error_kind)) (n : N) (b : stream) (lfk : kind) :
  scan cfg skipped sel s = Some errs -> LineAt s n b lfk ->
  ((exists k, In (n, k) errs) <->
   reportable n b lfk && (ends_blank b || eol && (maxw <? width b)) = true).
Proof.
  intros H Hat. rewrite andb_true_iff, <- kind_ok_ex. split.
  - intros [k Hin]. apply (reported_at _ _ _ _ _ H Hat) in Hin. destruct Hin as [Hr Hk]. eauto.
  - intros [Hr [k Hk]]. exists k. apply (reported_at _ _ _ _ _ H Hat). auto.
Qed.

Lemma scan_exact_l (s : stream) (errs : list (N * error_kind)) :
  scan cfg skipped sel s = Some errs ->
  forall n k, In (n, k) errs <-> Offending cfg skipped sel s n k.
Proof. intros H n k. rewrite Offending_iff. exact (scan_in _ _ H n k). Qed.

Lemma scan_none_iff_l (s : stream) :
  scan cfg skipped sel s = None <->
  exists n body lfk,
    1 <= n /\ nth_error (tlines s) (N.to_nat (n - 1)) = Some (body, lfk) /\
    sel n = true /\ ends_blank body = true /\ width body = 0.
Proof.
  rewrite scan_lines.
  transitivity (existsb line_underflow (numbered_lines s) = true);
    [destruct (existsb _ _); split; (reflexivity || discriminate)|].
  rewrite existsb_exists. split.
  - intros [[n [b lfk]] [Hl Hu]]. apply in_numbered_lines in Hl. destruct Hl as [Hn1 Hn].
    unfold line_underflow, underflow in Hu. rewrite !andb_true_iff, N.eqb_eq in Hu.
    exists n, b, lfk. tauto.
  - intros (n & b & lfk & Hn1 & Hn & Hs & Hb & Hw). exists (n, (b, lfk)).
    split; [apply in_numbered_lines; split; assumption|].
    unfold line_underflow, underflow. rewrite Hs, Hb, Hw. reflexivity.
Qed.

Lemma scan_total_l (s : stream) :
  tab_spaces cfg <> 0 -> exists errs, scan cfg skipped sel s = Some errs.
Proof.
  intros Ht. destruct (scan cfg skipped sel s) as [errs|] eqn:H; [eauto|].
  apply scan_none_iff_l in H. destruct H as [n [b [lfk [_ [_ [_ [Hb Hw]]]]]]].
  exfalso. apply (width_pos b Ht); [apply ends_blank_nonempty; exact Hb | exact Hw].
Qed.

Lemma scan_sorted_l (s : stream) (errs : list (N * error_kind)) :
  scan cfg skipped sel s = Some errs ->
  StronglySorted N.le (map fst errs) /\
  forall n k, In (n, k) errs -> 1 <= n <= N.of_nat (length (tlines s)).
Proof.
  intros H. split.
  - rewrite scan_lines in H. destruct (existsb _ _); [discriminate|]. injection H as <-.
    apply numbered_blocks_sorted. intros [n [b lfk]] [n' k] Hin.
    apply in_line_report in Hin. apply Hin.
  - intros n k Hin. apply (scan_in _ _ H) in Hin.
    destruct Hin as (b & lfk & [Hn1 Hn] & _).
    assert (Hlt : (N.to_nat (n - 1) < length (tlines s))%nat).
    { apply nth_error_Some. congruence. }
    lia.
Qed.

Lemma selected_only_l (s : stream) (errs : list (N * error_kind)) (n : N) (k : error_kind) :
  scan cfg skipped sel s = Some errs -> In (n, k) errs -> sel n = true.
Proof.
  intros H Hin. apply (scan_in _ _ H) in Hin.
  destruct Hin as (b & lfk & _ & Hr & _). apply reportable_iff in Hr. apply Hr.
Qed.

Lemma skipped_never_l (s : stream) (errs : list (N * error_kind)) (n : N) (k : error_kind) :
  scan cfg skipped sel s = Some errs -> In (n, k) errs ->
  forall lo hi, In (lo, hi) skipped -> ~ (lo <= n <= hi).
Proof.
  intros H Hin lo hi Hr Hc. apply (scan_in _ _ H) in Hin.
  destruct Hin as (b & lfk & _ & Hrep & _). apply reportable_iff in Hrep. destruct Hrep as (_ & Hk & _).
  assert (Ht : in_skipped n = true) by (apply in_skipped_iff; eauto).
  congruence.
Qed.

Lemma scan_kinds_l (s : stream) (errs : list (N * error_kind)) (n : N) (k : error_kind) :
  scan cfg skipped sel s = Some errs -> In (n, k) errs ->
  k = TrailingWhitespace \/ exists w, k = LineOverflow w maxw.
Proof.
  intros H Hin. apply (scan_in _ _ H) in Hin.
  destruct Hin as (b & lfk & _ & _ & Hk). apply kind_ok_iff in Hk.
  destruct Hk as [[-> _] | [-> _]]; eauto.
Qed.

(* an over-wide line ending blank stays over-wide only if it is so by two columns *)
Lemma over_eff_width (b : stream) :
  maxw < width b ->
  (maxw < eff_width b <-> (ends_blank b = true -> maxw + 1 < width b)).
Proof.
  intros Hw. unfold Model.eff_width. destruct (ends_blank b); lia.
Qed.

Lemma overflow_reported_iff_l (s : stream) (errs : list (N * error_kind))
      (n : N) (body : stream) (lfk : kind) :
  scan cfg skipped sel s = Some errs ->
  1 <= n -> nth_error (tlines s) (N.to_nat (n - 1)) = Some (body, lfk) ->
  maxw < width body ->
  (forall w m, In (n, LineOverflow w m) errs <->
     reportable n body lfk = true /\ eol = true /\
     w = eff_width body /\ m = maxw /\
     (ends_blank body = true -> maxw + 1 < width body))
  /\ (In (n, TrailingWhitespace) errs <->
      reportable n body lfk = true /\ ends_blank body = true)
  /\ ((forall k, ~ In (n, k) errs) <->
      reportable n body lfk = false
      \/ (ends_blank body = false /\ eol = false)).
Proof.
  intros H Hn1 Hn Hw.
  pose proof (reported_at _ _ _ _ _ H (conj Hn1 Hn)) as Hof.
  pose proof (over_eff_width body Hw) as Hov.
  split; [|split].
  - intros w m. rewrite Hof, <- Hov. cbn [kind_ok]. intuition congruence.
  - apply Hof.
  - transitivity (~ exists k, In (n, k) errs).
    { split; [intros Hno [k Hk]; exact (Hno k Hk) | intros Hno k Hk; apply Hno; exists k; exact Hk]. }
    rewrite (some_reported_at _ _ _ _ _ H (conj Hn1 Hn)), not_true_iff_false.
    apply N.ltb_lt in Hw. rewrite Hw, andb_true_r, andb_false_iff, orb_false_iff. reflexivity.
Qed.

Lemma both_on_exact_l (s : stream) (errs : list (N * error_kind)) :
  eol = true -> eou = true ->
  scan cfg skipped sel s = Some errs ->
  forall n, (exists k, In (n, k) errs) <->
    exists body lfk,
      1 <= n /\ nth_error (tlines s) (N.to_nat (n - 1)) = Some (body, lfk) /\
      sel n = true /\ in_skipped n = false /\
      (maxw < width body \/ ends_blank body = true).
Proof.
  intros Hl Hu H n.
  (* what some_reported_at says of line n with both options on *)
  assert (Hat : forall b lfk, LineAt s n b lfk ->
            ((exists k, In (n, k) errs) <->
             sel n = true /\ in_skipped n = false /\ (maxw < width b \/ ends_blank b = true))).
  { intros b lfk Hat. rewrite (some_reported_at _ _ _ _ _ H Hat).
    rewrite Hl, andb_true_l, andb_true_iff, orb_true_iff, N.ltb_lt, reportable_iff. tauto. }
  split.
  - intros [k Hin]. destruct (proj1 (scan_in _ _ H n k) Hin) as (b & lfk & Hl' & _).
    exists b, lfk. split; [apply Hl'|]. split; [apply Hl'|]. apply (Hat b lfk Hl'). eauto.
  - intros (b & lfk & Hn1 & Hn & Hr). apply (Hat b lfk (conj Hn1 Hn)). exact Hr.
Qed.

(* under every setting of the two options: they are part of cfg, which is arbitrary *)
Lemma trailing_every_setting_l (s : stream) (errs : list (N * error_kind))
      (n : N) (body : stream) (lfk : kind) :
  scan cfg skipped sel s = Some errs ->
  1 <= n -> nth_error (tlines s) (N.to_nat (n - 1)) = Some (body, lfk) ->
  sel n = true -> in_skipped n = false ->
  exempt body lfk = false -> ends_blank body = true ->
  In (n, TrailingWhitespace) errs.
Proof.
  intros H Hn1 Hn Hs Hk Hx Hb. apply (reported_at _ _ _ _ _ H (conj Hn1 Hn)).
  split; [apply reportable_iff | exact Hb]. split; [exact Hs | split; [exact Hk | congruence]].
Qed.

(* is_comment / is_string of a pushed error (display only: msg_suffix) *)
Lemma report_flags_l (s : stream) (es : list ferr) (kept : N) (e : ferr) :
  format_lines cfg skipped sel s = Some (es, kept) -> In e es ->
  exists body lfk,
    1 <= fe_line e /\
    nth_error (tlines s) (N.to_nat (fe_line e - 1)) = Some (body, lfk) /\
    fe_is_comment e = is_comment lfk /\
    fe_is_string e = match fe_kind e with
                     | TrailingWhitespace => is_string lfk
                     | _ => has_string body
                     end.
Proof.
  intros H Hin.
  pose proof (format_lines_errors s) as Hf. rewrite H in Hf.
  destruct (existsb _ _); [discriminate|]. injection Hf as ->.
  apply in_flat_map in Hin. destruct Hin as [[n [b lfk]] [Hl Hin]].
  apply in_numbered_lines in Hl. destruct Hl as [Hn1 Hn]. apply line_report_flags in Hin.
  destruct Hin as [-> Hf]. exists b, lfk. auto.
Qed.

Lemma iterate_app (a b : stream) :
  forall st,
  iterate cfg skipped sel st (a ++ b) =
  match iterate cfg skipped sel st a with
  | Some st' => iterate cfg skipped sel st' b
  | None => None
  end.
Proof.
  induction a as [|[k c] a IH]; intros st; cbn [app iterate]; [reflexivity|].
  destruct (is_cr c); [apply IH|].
  destruct (is_lf c); [|apply IH].
  destruct (new_line cfg skipped sel st k); [apply IH | reflexivity].
Qed.

Lemma newline_count_spec (s : stream) :
  forall st, iterate cfg skipped sel (fl_new sel) s = Some st ->
  newline_count st = trailing_lfs s.
Proof.
  induction s as [|[k c] s IH] using rev_ind; intros st H.
  - cbn in H. inversion H; subst st. reflexivity.
  - rewrite iterate_app in H.
    destruct (iterate cfg skipped sel (fl_new sel) s) as [st0|] eqn:H0; [|discriminate].
    specialize (IH st0 eq_refl). unfold trailing_lfs, strip_cr in *.
    rewrite filter_app. cbn [filter snd iterate] in *.
    destruct (is_cr c) eqn:Hcr; cbn [negb].
    + inversion H; subst st. rewrite app_nil_r. exact IH.
    + rewrite rev_unit. cbn [lead_lf]. destruct (is_lf c) eqn:Hlf.
      * rewrite new_line_eq in H. destruct (underflow _ _ _); [discriminate|].
        inversion H; subst st. cbn [newline_count]. rewrite IH. apply N.add_comm.
      * inversion H; subst st. reflexivity.
Qed.

Lemma truncate_spec_l (s : stream) (es : list ferr) (kept : N) :
  format_lines cfg skipped sel s = Some (es, kept) ->
  kept = if 1 <? trailing_lfs s
         then N.of_nat (length s) - trailing_lfs s + 1
         else N.of_nat (length s).
Proof.
  unfold format_lines. intros H.
  destruct (iterate cfg skipped sel (fl_new sel) s) as [st|] eqn:Hst; [|discriminate].
  rewrite (newline_count_spec _ _ Hst) in H. inversion H. reflexivity.
Qed.

End Proofs.

Lemma reportable_eou_off (cfg : config) (skipped : list (N * N)) (sel : N -> bool)
      (n : N) (b : stream) (lfk : kind) :
  error_on_unformatted cfg = false ->
  reportable cfg skipped sel n b lfk =
  reportable (cfg_eou_on cfg) skipped sel n b lfk && negb (exempt b lfk).
Proof.
  unfold reportable, cfg_eou_on. cbn [error_on_unformatted]. intros ->.
  destruct (exempt b lfk); rewrite ?andb_false_r, ?andb_true_r; reflexivity.
Qed.

Lemma eou_off_exact_l (cfg : config) (skipped : list (N * N)) (sel : N -> bool)
      (s : stream) (errs_off errs_on : list (N * error_kind)) :
  error_on_unformatted cfg = false ->
  scan cfg skipped sel s = Some errs_off ->
  scan (cfg_eou_on cfg) skipped sel s = Some errs_on ->
  forall n k, In (n, k) errs_off <->
    In (n, k) errs_on /\
    exists body lfk, nth_error (tlines s) (N.to_nat (n - 1)) = Some (body, lfk) /\
                     exempt body lfk = false.
Proof.
  intros Hu Hoff Hon n k.
  rewrite (scan_in _ _ _ _ _ Hoff), (scan_in _ _ _ _ _ Hon).
  split.
  - intros (b & lfk & Hl & Hr & Hk).
    rewrite (reportable_eou_off _ _ _ _ _ _ Hu), andb_true_iff, negb_true_iff in Hr.
    destruct Hr as [Hr Hx].
    split; exists b, lfk; [split; [exact Hl|]; split; [exact Hr | exact Hk] | split; [apply Hl | exact Hx]].
  - intros [(b & lfk & [Hn1 Hn] & Hr & Hk) (b' & lfk' & Hn' & Hx)].
    rewrite Hn in Hn'. injection Hn' as <- <-.
    exists b, lfk. split; [split; assumption|]. split; [|exact Hk].
    rewrite (reportable_eou_off _ _ _ _ _ _ Hu), Hr, Hx. reflexivity.
Qed.

(* tlines really is the list of LF-terminated lines of the CR-stripped stream *)
Lemma lines_rest_concat (s : stream) : forall cur,
  rev cur ++ s =
  concat (map (fun bl => fst bl ++ [(snd bl, LF)]) (lines_aux cur s)) ++ rest_aux cur s.
Proof.
  induction s as [|[k c] s IH]; intros cur.
  - cbn. rewrite app_nil_r. reflexivity.
  - cbn [lines_aux rest_aux]. destruct (is_lf c) eqn:Hlf.
    + apply N.eqb_eq in Hlf. subst c.
      cbn [map concat fst snd]. rewrite <- app_assoc, <- (IH []). cbn [rev app].
      rewrite <- app_assoc. reflexivity.
    + rewrite <- IH. cbn [rev]. rewrite <- app_assoc. reflexivity.
Qed.

(* what holds of every char of s other than LF holds throughout the pieces *)
Lemma lines_aux_Forall (P : kind * char -> Prop) (s : stream) : forall cur,
  Forall P cur -> (forall p, In p s -> is_lf (snd p) = false -> P p) ->
  (forall bl, In bl (lines_aux cur s) -> Forall P (fst bl)) /\ Forall P (rest_aux cur s).
Proof.
  induction s as [|[k c] s IH]; intros cur Hcur Hs; cbn [lines_aux rest_aux].
  - split; [contradiction | apply Forall_rev; exact Hcur].
  - destruct (is_lf c) eqn:Hlf.
    + destruct (IH [] (Forall_nil P) (fun p Hp => Hs p (or_intror Hp))) as [H1 H2].
      split; [|exact H2].
      intros bl [<-|Hin]; [apply Forall_rev; exact Hcur | apply H1; exact Hin].
    + apply IH; [|intros p Hp; apply Hs; right; exact Hp].
      constructor; [apply Hs; [left; reflexivity | exact Hlf] | exact Hcur].
Qed.

Lemma tlines_split_l (s : stream) :
  strip_cr s = concat (map (fun bl => fst bl ++ [(snd bl, LF)]) (tlines s)) ++ trest s
  /\ (forall b k p, In (b, k) (tlines s) -> In p b -> snd p <> LF /\ snd p <> CR)
  /\ (forall p, In p (trest s) -> snd p <> LF /\ snd p <> CR).
Proof.
  split; [exact (lines_rest_concat (strip_cr s) [])|].
  destruct (lines_aux_Forall (fun p => snd p <> LF /\ snd p <> CR) (strip_cr s) [])
    as [H1 H2]; [constructor| |].
  - intros p Hp Hlf. apply filter_In in Hp. destruct Hp as [_ Hcr].
    apply negb_true_iff in Hcr. split; apply N.eqb_neq; assumption.
  - split.
    + intros b k p Hin. revert p. apply Forall_forall. exact (H1 _ Hin).
    + apply Forall_forall. exact H2.
Qed.

Definition sets_op (k : error_kind) : bool :=
  match k with LineOverflow _ _ | TrailingWhitespace => true | _ => false end.

Lemma track_one_op (f : flags) (e : ferr) :
  has_operational_errors (track_one f e) = has_operational_errors f || sets_op (fe_kind e).
Proof.
  unfold track_one.
  destruct (fe_kind e); cbn [has_operational_errors sets_op];
    rewrite ?orb_true_r, ?orb_false_r; reflexivity.
Qed.

Lemma fold_track_op (es : list ferr) : forall f,
  has_operational_errors (fold_left track_one es f) =
  has_operational_errors f || existsb sets_op (map fe_kind es).
Proof.
  induction es as [|e es IH]; intros f; cbn [fold_left map existsb].
  - rewrite orb_false_r. reflexivity.
  - rewrite IH, track_one_op, orb_assoc. reflexivity.
Qed.

Lemma track_errors_op (f : flags) (es : list ferr) :
  existsb sets_op (map fe_kind es) = true -> has_operational_errors (track_errors f es) = true.
Proof.
  intros H. unfold track_errors.
  set (f1 := match es with [] => f | _ :: _ => _ end).
  destruct (has_operational_errors f1 && has_check_errors f1 && has_unformatted_code_errors f1)
    eqn:Hc.
  - rewrite !andb_true_iff in Hc. apply Hc.
  - rewrite fold_track_op, H. apply orb_true_r.
Qed.

(* a report of a kind that sets has_operational_errors, among the errors handed over;
   the scanner plays no part *)
Lemma kind_exits_one (k : error_kind) (es : list ferr) (n : N) (f sess : flags) (check : bool) :
  sets_op k = true ->
  In (n, k) (map (fun e => (fe_line e, fe_kind e)) es) ->
  exit_code (flags_add sess (track_errors f es)) check = 1
  /\ exit_code_stdin (flags_add sess (track_errors f es)) = 1.
Proof.
  intros Hk Hin. apply (in_map snd) in Hin. rewrite map_map in Hin.
  assert (Hop : has_operational_errors (track_errors f es) = true).
  { apply track_errors_op, existsb_exists. exists k. split; [exact Hin | exact Hk]. }
  unfold exit_code, exit_code_stdin, flags_add.
  cbn [has_operational_errors has_parsing_errors has_diff has_check_errors].
  rewrite Hop, orb_true_r. auto.
Qed.

Lemma trailing_exits_one_l (cfg : config) (skipped : list (N * N)) (sel : N -> bool)
      (s : stream) (es : list ferr) (kept n : N) (f sess : flags) (check : bool) :
  format_lines cfg skipped sel s = Some (es, kept) ->
  In (n, TrailingWhitespace) (map (fun e => (fe_line e, fe_kind e)) es) ->
  exit_code (flags_add sess (track_errors f es)) check = 1
  /\ exit_code_stdin (flags_add sess (track_errors f es)) = 1.
Proof. intros _. apply kind_exits_one. reflexivity. Qed.

Lemma overflow_exits_one_l (cfg : config) (skipped : list (N * N)) (sel : N -> bool)
      (s : stream) (es : list ferr) (kept n w m : N) (f sess : flags) (check : bool) :
  format_lines cfg skipped sel s = Some (es, kept) ->
  In (n, LineOverflow w m) (map (fun e => (fe_line e, fe_kind e)) es) ->
  exit_code (flags_add sess (track_errors f es)) check = 1
  /\ exit_code_stdin (flags_add sess (track_errors f es)) = 1.
Proof. intros _. apply kind_exits_one. reflexivity. Qed.

(* Where the code departs from the plain-English property, each with a concrete
   witness; the kinds are the ones CharClasses assigns to the text shown. *)

(* text: aaaa<SP> without final LF; max_width 2.  The last line is over-wide
   and ends in a blank, both options are on, nothing is reported: new_line
   never runs for a line that has no LF.  (format_file appends a newline
   before format_lines, so rustfmt's own output always ends in LF.) *)
Lemma unterminated_line_gap_l :
  exists s,
    tlines s = [] /\
    max_width (MkCfg 2 4 true true) < width (MkCfg 2 4 true true) (trest s) /\
    ends_blank (trest s) = true /\
    scan (MkCfg 2 4 true true) [] all_lines s = Some [].
Proof. exists (nrm [97; 97; 97; 97; 32]). vm_compute. auto. Qed.

(* text: aaaa<TAB><LF>, tab_spaces 4: the line is 8 columns wide.  With
   max_width 7 it is reported only as TrailingWhitespace, not as too wide;
   with max_width 5 the width reported is 7: a trailing blank is discounted
   as ONE column whatever its width. *)
Lemma trailing_blank_discount_gap_l :
  exists s body lfk,
    tlines s = [(body, lfk)] /\
    width (MkCfg 7 4 true true) body = 8 /\
    scan (MkCfg 7 4 true true) [] all_lines s = Some [(1, TrailingWhitespace)] /\
    scan (MkCfg 5 4 true true) [] all_lines s
      = Some [(1, TrailingWhitespace); (1, LineOverflow 7 5)].
Proof.
  exists (nrm [97; 97; 97; 97; 9; 10]). do 2 eexists. split; [reflexivity|]. vm_compute. auto.
Qed.

(* text: /*aaaa*/<LF>, error_on_unformatted off, max_width 4: every char of
   the line is of a comment kind, yet the line is reported as too wide, because
   only the kind of the LF (Normal here) decides the comment exemption. *)
Lemma block_comment_line_gap_l :
  exists s body lfk,
    tlines s = [(body, lfk)] /\
    forallb (fun p => is_comment (fst p)) body = true /\
    scan (MkCfg 4 4 true false) [] all_lines s = Some [(1, LineOverflow 8 4)].
Proof.
  exists [(StartComment, 47); (InComment, 42); (InComment, 97); (InComment, 97);
          (InComment, 97); (InComment, 97); (InComment, 42); (EndComment, 47); (Normal, 10)].
  do 2 eexists. split; [reflexivity|]. vm_compute. auto.
Qed.

(* text: aaaaaaaa//b<LF>, error_on_unformatted off, max_width 4: the code
   before the line comment alone is 8 columns, but nothing is reported because
   the LF closing a line comment is of kind EndComment; with
   error_on_unformatted on the line is reported. *)
Lemma code_before_line_comment_gap_l :
  exists s body lfk,
    tlines s = [(body, lfk)] /\
    firstn 8 body = nrm [97; 97; 97; 97; 97; 97; 97; 97] /\
    scan (MkCfg 4 4 true false) [] all_lines s = Some [] /\
    scan (MkCfg 4 4 true true) [] all_lines s = Some [(1, LineOverflow 11 4)].
Proof.
  exists (nrm [97; 97; 97; 97; 97; 97; 97; 97]
          ++ [(StartComment, 47); (InComment, 47); (InComment, 98); (EndComment, 10)]).
  do 2 eexists. split; [reflexivity|]. vm_compute. auto.
Qed.

(* text: <TAB><LF> with tab_spaces = 0 (both options off, as by default):
   line_len is 0 when `self.line_len -= 1` runs. *)
Lemma line_len_underflow_gap_l :
  scan (MkCfg 100 0 false false) [] all_lines (nrm [9; 10]) = None.
Proof. vm_compute. reflexivity. Qed.

(* text: a<CR><LF><CR><LF>: newline_count is 2 (CRs neither count nor reset
   it), so one byte is cut: the kept text a<CR><LF><CR> ends in a lone CR.
   (Outside the wording of C07; recorded because Run.v returns `kept`.) *)
Lemma truncate_crlf_gap_l :
  format_lines (MkCfg 100 4 true true) [] all_lines (nrm [97; 13; 10; 13; 10]) = Some ([], 4)
  /\ firstn 4 [97; 13; 10; 13; 10] = [97; 13; 10; 13].
Proof. vm_compute. auto. Qed.
