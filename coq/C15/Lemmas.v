(* C15/Lemmas.v — proofs for C15: a session is a static part (configuration, emitter, bits) and two accumulators
   (flags under flags_add, json entries under ++); every input that does not abort the loop is one [step], whose
   report depends on the static part only.  Independence of history and of order follow from that. *)
From Coq Require Import Permutation.
From V Require Import Base.Text Base.Lists C12.Model C20.Model C06.Model C06.Lemmas C15.Model.
Local Open Scope N_scope.

Lemma exit_file_mono a b c : exit_file a c <= exit_file (flags_add a b) c.
Proof. rewrite exit_file_add. lia. Qed.

Lemma max_b2n_existsb {A} (g : A -> bool) l :
  fold_right N.max 0 (map (fun x => N.b2n (g x)) l) = N.b2n (existsb g l).
Proof. induction l as [|x l IH]; [reflexivity|]. cbn [map fold_right existsb]. rewrite IH, b2n_orb. reflexivity. Qed.

Lemma flags_sum_perm l l' : Permutation l l' -> flags_sum l = flags_sum l'.
Proof.
  intros H. induction H as [|x l l' H IH|x y l|l l' l'' H1 IH1 H2 IH2].
  - reflexivity.
  - rewrite !flags_sum_cons, IH. reflexivity.
  - rewrite !flags_sum_cons, !flags_add_assoc, (flags_add_comm y x). reflexivity.
  - congruence.
Qed.

Section Session.
Variable tmp_of bk_of : path -> path.
Variable formatter : cfg -> input -> input_result.
Notation format_one := (format_one tmp_of bk_of).
Notation run_loop := (run_loop tmp_of bk_of formatter).

(* the parts of the session that an input's report can depend on *)
Definition same_static (s s' : session) : Prop :=
  s_cfg s = s_cfg s' /\ s_emitter s = s_emitter s' /\ s_bits s = s_bits s'.

Lemma same_static_refl s : same_static s s.
Proof. repeat split. Qed.
Lemma same_static_trans a b c : same_static a b -> same_static b c -> same_static a c.
Proof. intros (H1 & H2 & H3) (G1 & G2 & G3). repeat split; congruence. Qed.
Lemma same_static_sym a b : same_static a b -> same_static b a.
Proof. intros (H1 & H2 & H3). repeat split; congruence. Qed.

Lemma format_one_report_static s s' r : same_static s s' -> snd (format_one s r) = snd (format_one s' r).
Proof. intros (H1 & H2 & H3). unfold Model.format_one, Model.emit_file. rewrite H1, H2, H3. reflexivity. Qed.

Lemma format_one_errors s r :
  s_errors (fst (format_one s r)) = flags_add (s_errors s) (rp_flags (snd (format_one s r))).
Proof. reflexivity. Qed.

Definition json_of_report (rep : report) : list (path * list (jblock text)) :=
  concat (map (fun x => json_entry (fst (fst x)) (snd x)) (rp_files rep)).

Lemma format_one_json s r :
  s_json (fst (format_one s r)) = s_json s ++ json_of_report (snd (format_one s r)).
Proof.
  unfold Model.format_one, json_of_report. cbn [fst snd s_json rp_files]. f_equal.
  rewrite !map_map. reflexivity.
Qed.

Lemma override_restores {U} s c (f : session -> session * U) : s_cfg (fst (override_config s c f)) = s_cfg s.
Proof. reflexivity. Qed.

Definition eff_cfg (s : session) (m : minput) : cfg :=
  match mi_local m with LOk c => c | _ => s_cfg s end.

Definition bad_path (m : minput) : bool := negb (mi_exists m) || mi_is_dir m.
Definition aborts (m : minput) : bool :=
  negb (bad_path m) && match mi_local m with LErr => true | _ => false end.

(* one pass of the loop body for an input that does not abort it.  Without a local configuration this sets the
   session's own configuration and restores it, which changes nothing: all three branches of run_loop are this *)
Definition step (s : session) (m : minput) : session * report :=
  if bad_path m then (add_operational s, bad_path_report)
  else let sr := format_one (set_cfg s (eff_cfg s m)) (formatter (eff_cfg s m) (mi_input m)) in
       (set_cfg (fst sr) (s_cfg s), snd sr).

Definition report_of (s : session) (m : minput) : report := snd (step s m).

(* the inputs before the first whose local configuration fails to load *)
Fixpoint processed (ins : list minput) : list minput :=
  match ins with
  | [] => []
  | m :: ins' => if aborts m then [] else m :: processed ins'
  end.

Lemma processed_all ins : existsb aborts ins = false -> processed ins = ins.
Proof.
  induction ins as [|m ins IH]; [reflexivity|]. cbn [existsb processed]. intros H.
  apply orb_false_iff in H. destruct H as [H1 H2]. rewrite H1, (IH H2). reflexivity.
Qed.

Lemma processed_no_abort ins : forall m, In m (processed ins) -> aborts m = false.
Proof.
  induction ins as [|m0 ins IH]; intros m Hin; [destruct Hin|]. cbn [processed] in Hin.
  destruct (aborts m0) eqn:E; [destruct Hin|]. destruct Hin as [<-|Hin]; [exact E|apply IH; exact Hin].
Qed.

Lemma existsb_processed (h : minput -> bool) ins :
  existsb aborts ins || existsb h (processed ins) = existsb (fun m => aborts m || h m) ins.
Proof.
  induction ins as [|m ins IH]; [reflexivity|]. cbn [existsb processed].
  destruct (aborts m); [reflexivity|]. cbn [existsb orb]. rewrite <- IH, !orb_assoc, (orb_comm (h m)). reflexivity.
Qed.

Lemma run_loop_cons s m ins :
  run_loop s (m :: ins) =
  if aborts m then (s, [], true)
  else let r := run_loop (fst (step s m)) ins in (fst (fst r), snd (step s m) :: snd (fst r), snd r).
Proof.
  unfold aborts, step, eff_cfg, bad_path. cbn [run_loop].
  destruct (negb (mi_exists m) || mi_is_dir m); [reflexivity|]. destruct (mi_local m); reflexivity.
Qed.

Lemma step_spec s m :
  same_static s (fst (step s m)) /\
  s_errors (fst (step s m)) = flags_add (s_errors s) (rp_flags (report_of s m)) /\
  s_json (fst (step s m)) = s_json s ++ json_of_report (report_of s m).
Proof.
  unfold report_of, step. destruct (bad_path m); cbn [fst snd].
  - split; [repeat split|]. split; [reflexivity|]. symmetry. apply app_nil_r.
  - split; [repeat split|]. split; [reflexivity|]. apply (format_one_json (set_cfg s (eff_cfg s m))).
Qed.

Lemma report_of_static s s' m : same_static s s' -> report_of s m = report_of s' m.
Proof.
  intros (H1 & H2 & H3). unfold report_of, step, eff_cfg. destruct (bad_path m); [reflexivity|]. cbn [snd].
  rewrite H1. apply format_one_report_static. repeat split; assumption.
Qed.

(* the loop as a whole: the reports of the processed inputs, each a function of the initial static part, and
   the two accumulators grown by what the reports contribute *)
Lemma run_loop_spec ins : forall s,
  let x := run_loop s ins in
  reports x = map (report_of s) (processed ins) /\
  aborted x = existsb aborts ins /\
  same_static s (final_session x) /\
  s_errors (final_session x) = flags_add (s_errors s) (flags_sum (map rp_flags (reports x))) /\
  s_json (final_session x) = s_json s ++ concat (map json_of_report (reports x)).
Proof.
  induction ins as [|m ins IH]; intros s; cbv zeta.
  - cbn. rewrite flags_add_zero_r, app_nil_r. repeat split.
  - rewrite run_loop_cons. cbn [processed existsb].
    destruct (aborts m); [cbn; rewrite flags_add_zero_r, app_nil_r; repeat split|].
    destruct (step_spec s m) as (S1 & S2 & S3). destruct (IH (fst (step s m))) as (I1 & I2 & I3 & I4 & I5).
    unfold reports, aborted, final_session in *. cbn [fst snd map orb concat].
    rewrite I1 in *. split; [|split; [|split; [|split]]].
    + f_equal. apply map_ext. intros m'. symmetry. apply report_of_static. exact S1.
    + exact I2.
    + apply (same_static_trans _ _ _ S1 I3).
    + rewrite I4, S2, flags_sum_cons, flags_add_assoc. reflexivity.
    + rewrite I5, S3, app_assoc. reflexivity.
Qed.

(* what an input yields when it is the only one *)
Definition report_alone (s : session) (m : minput) : report :=
  hd bad_path_report (reports (run_loop s [m])).

Lemma report_alone_eq s m : report_alone s m = if aborts m then bad_path_report else report_of s m.
Proof. unfold report_alone. rewrite run_loop_cons. destruct (aborts m); reflexivity. Qed.

Lemma run_loop_restores s ins : s_cfg (final_session (run_loop s ins)) = s_cfg s.
Proof. destruct (run_loop_spec ins s) as (_ & _ & (H & _) & _). symmetry. exact H. Qed.

Lemma emitter_fixed_lemma s ins :
  s_emitter (final_session (run_loop s ins)) = s_emitter s /\ s_bits (final_session (run_loop s ins)) = s_bits s.
Proof. destruct (run_loop_spec ins s) as (_ & _ & (_ & H1 & H2) & _). auto. Qed.

Lemma reports_alone s ins :
  reports (run_loop s ins) = map (report_alone s) (processed ins).
Proof.
  destruct (run_loop_spec ins s) as (-> & _).
  apply map_ext_in. intros m Hm. rewrite report_alone_eq, (processed_no_abort ins m Hm). reflexivity.
Qed.

Lemma report_history_free s s' m : same_static s s' -> report_alone s m = report_alone s' m.
Proof. intros H. rewrite !report_alone_eq. destruct (aborts m); [reflexivity|]. apply report_of_static. exact H. Qed.

Definition exit_single (s : session) (check : bool) (m : minput) : N := exit_of (run_loop s [m]) check.

Lemma exit_single_eq s check m : s_errors s = flags_zero ->
  exit_single s check m = N.b2n (aborts m || exit_bit (rp_flags (report_of s m)) check).
Proof.
  intros Hz. unfold exit_single, exit_of. rewrite run_loop_cons. destruct (aborts m); [reflexivity|].
  destruct (step_spec s m) as (_ & S2 & _). cbn. rewrite S2, Hz, flags_add_zero_l. reflexivity.
Qed.

(* in boolean form both sides say: some input aborts, or some processed input's report sets the exit bit *)
Lemma exit_is_max_lemma s check ins : s_errors s = flags_zero ->
  exit_of (run_loop s ins) check = fold_right N.max 0 (map (exit_single s check) ins).
Proof.
  intros Hz. rewrite (map_ext _ _ (fun m => exit_single_eq s check m Hz)), max_b2n_existsb, <- existsb_processed.
  unfold exit_of. destruct (run_loop_spec ins s) as (Hrep & Hab & _ & Herr & _).
  rewrite Hab, Herr, Hrep, Hz, flags_add_zero_l, map_map, exit_file_bit, exit_bit_sum.
  destruct (existsb aborts ins); reflexivity.
Qed.

Lemma order_irrelevant_lemma s check ins ins' :
  Permutation ins ins' -> existsb aborts ins = false ->
  exit_of (run_loop s ins) check = exit_of (run_loop s ins') check /\
  s_errors (final_session (run_loop s ins)) = s_errors (final_session (run_loop s ins')) /\
  reports (run_loop s ins) = map (report_alone s) ins /\
  reports (run_loop s ins') = map (report_alone s) ins' /\
  Permutation (reports (run_loop s ins)) (reports (run_loop s ins')) /\
  Permutation (s_json (final_session (run_loop s ins))) (s_json (final_session (run_loop s ins'))).
Proof.
  intros HP Ha. assert (Ha' : existsb aborts ins' = false) by (rewrite <- (existsb_perm aborts ins ins' HP); exact Ha).
  pose proof (reports_alone s ins) as R1. pose proof (reports_alone s ins') as R2.
  rewrite processed_all in R1, R2 by assumption.
  assert (RP : Permutation (reports (run_loop s ins)) (reports (run_loop s ins'))).
  { rewrite R1, R2. apply Permutation_map, HP. }
  unfold exit_of. destruct (run_loop_spec ins s) as (_ & Hab & _ & Herr & Hjson).
  destruct (run_loop_spec ins' s) as (_ & Hab' & _ & Herr' & Hjson').
  rewrite Hab, Herr, Hjson, Hab', Herr', Hjson', Ha, Ha'.
  rewrite (flags_sum_perm _ _ (Permutation_map rp_flags RP)), <- !flat_map_concat_map.
  repeat split; auto. apply Permutation_app_head, Permutation_flat_map, RP.
Qed.

(* with a configuration that fails to load the order matters: whatever the formatter *)
Lemma order_cfgerr_refuted_lemma :
  exists (s : session) (ins ins' : list minput),
    Permutation ins ins' /\
    length (reports (run_loop s ins)) = 1%nat /\ length (reports (run_loop s ins')) = 0%nat.
Proof.
  exists (session_of_cfg (MkCfg 0 true MFiles false (MkBits false false))),
         [MkIn true false LNone 1; MkIn true false LErr 2], [MkIn true false LErr 2; MkIn true false LNone 1].
  split; [apply perm_swap|]. split; reflexivity.
Qed.

(* true of any function in place of run_loop: it says only that the model is one *)
Lemma deterministic_lemma s ins : forall x y, x = run_loop s ins -> y = run_loop s ins -> x = y.
Proof. intros x y -> ->. reflexivity. Qed.

Lemma same_input_twice_lemma s m : aborts m = false ->
  reports (run_loop s [m; m]) = [report_alone s m; report_alone s m].
Proof.
  intros H. rewrite reports_alone. cbn [processed]. rewrite H. reflexivity.
Qed.
End Session.

(* the emitter options of a per-file (local) configuration are not the ones in effect *)
Definition demo_formatter (c : cfg) (i : input) : input_result :=
  MkRes [MkFile i [97; 10] [98; 10] flags_zero] flags_zero false.

Lemma local_emitter_options_ignored_lemma :
  exists (tmp_of bk_of : path -> path) (formatter : cfg -> input -> input_result) (scfg c : cfg) (i : input),
    cf_backup c = true /\ cf_backup scfg = false /\ cf_mode c = MFiles /\ cf_mode scfg = MFiles /\
    map rp_files (reports (run_loop tmp_of bk_of formatter (session_of_cfg scfg) [MkIn true false (LOk c) i])) =
      [[(i, [Write i [98; 10]], OutNothing)]] /\
    map rp_files (reports (run_loop tmp_of bk_of formatter (session_of_cfg c) [MkIn true false LNone i])) =
      [[(i, [Remove (i + 1); Write (i + 1) [98; 10]; Rename i (i + 2); Rename (i + 1) i], OutNothing)]].
Proof.
  exists (fun p => p + 1), (fun p => p + 2), demo_formatter,
         (MkCfg 0 true MFiles false (MkBits false false)), (MkCfg 0 true MFiles true (MkBits false false)), 1.
  repeat apply conj; reflexivity.
Qed.

Lemma config_restored_lemma :
  (forall (U : Type) (s : session) (c : cfg) (f : session -> session * U), s_cfg (fst (override_config s c f)) = s_cfg s) /\
  (forall tmp_of bk_of formatter (s : session) (ins : list minput),
     s_cfg (final_session (run_loop tmp_of bk_of formatter s ins)) = s_cfg s).
Proof. split; [exact @override_restores|exact run_loop_restores]. Qed.

Lemma per_input_independent_lemma tmp_of bk_of formatter (s : session) (ins : list minput) :
  reports (run_loop tmp_of bk_of formatter s ins) = map (report_alone tmp_of bk_of formatter s) (processed ins) /\
  (existsb aborts ins = false -> processed ins = ins).
Proof. split; [apply reports_alone|apply processed_all]. Qed.
