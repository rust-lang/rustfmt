(* C15/Props.v — C15: "The bytes rustfmt produces for a file depend only on that file's module tree and its
   effective configuration: they are the same across repeated runs, across processes, whether the source arrives
   as a path or on standard input, whatever other files were formatted before it in the same invocation or session
   and in whatever order, whatever the working directory and environment. The exit status of a multi-file
   invocation is the maximum of the single-file statuses and the per-file reports are those of the single-file
   runs."
   Scope: the Session state machine and main.rs's loop.  HYPOTHESIS (the parameter [formatter] of every theorem):
   the formatter proper is a function of the effective configuration and the input alone; the theorems show that
   the code AROUND it adds no other dependency.  For every list of inputs and every formatter: no bound. *)
From Coq Require Import Permutation.
From V Require Import Base.Text C12.Model C20.Model C06.Model C06.Lemmas C15.Model C15.Lemmas.
Local Open Scope N_scope.

(* override_config: the session configuration is restored after every input, whatever the closure does *)
Theorem config_restored :
  (forall (U : Type) (s : session) (c : cfg) (f : session -> session * U), s_cfg (fst (override_config s c f)) = s_cfg s) /\
  (forall tmp_of bk_of formatter (s : session) (ins : list minput),
     s_cfg (final_session (run_loop tmp_of bk_of formatter s ins)) = s_cfg s).
Proof. exact config_restored_lemma. Qed.
Print Assumptions config_restored.

(* clause "whatever other files were formatted before it": the report (per-file operations, outputs, flags) of
   each processed input is the report of a run on that input alone; processed = all inputs when no local
   configuration fails to load *)
Theorem per_input_independent : forall tmp_of bk_of formatter (s : session) (ins : list minput),
  reports (run_loop tmp_of bk_of formatter s ins) = map (report_alone tmp_of bk_of formatter s) (processed ins) /\
  (existsb aborts ins = false -> processed ins = ins).
Proof. exact per_input_independent_lemma. Qed.
Print Assumptions per_input_independent.

(* ... and that report does not depend on what the session accumulated (errors, json entries, source_file):
   only on the configuration, the emitter and its two bits *)
Theorem report_history_free : forall tmp_of bk_of formatter (s s' : session) (m : minput),
  same_static s s' -> report_alone tmp_of bk_of formatter s m = report_alone tmp_of bk_of formatter s' m.
Proof. exact Lemmas.report_history_free. Qed.
Print Assumptions report_history_free.

(* last sentence: exit status of a multi-file invocation = maximum of the single-file statuses *)
Theorem exit_is_max : forall tmp_of bk_of formatter (s : session) (check : bool) (ins : list minput),
  s_errors s = flags_zero ->
  exit_of (run_loop tmp_of bk_of formatter s ins) check =
  fold_right N.max 0 (map (exit_single tmp_of bk_of formatter s check) ins).
Proof. exact exit_is_max_lemma. Qed.
Print Assumptions exit_is_max.

(* the exit code is a join-preserving map of the flags *)
Theorem exit_monotone : forall (a b : flags) (c : bool),
  exit_file (flags_add a b) c = N.max (exit_file a c) (exit_file b c).
Proof. exact exit_file_add. Qed.
Print Assumptions exit_monotone.

(* clause "in whatever order": for a permutation of the inputs (all configurations loading), same exit status,
   same accumulated flags, the same per-input reports (each the single-input report), and the JSON document's
   entries are a permutation *)
Theorem order_irrelevant : forall tmp_of bk_of formatter (s : session) (check : bool) (ins ins' : list minput),
  Permutation ins ins' -> existsb aborts ins = false ->
  exit_of (run_loop tmp_of bk_of formatter s ins) check = exit_of (run_loop tmp_of bk_of formatter s ins') check /\
  s_errors (final_session (run_loop tmp_of bk_of formatter s ins)) =
    s_errors (final_session (run_loop tmp_of bk_of formatter s ins')) /\
  reports (run_loop tmp_of bk_of formatter s ins) = map (report_alone tmp_of bk_of formatter s) ins /\
  reports (run_loop tmp_of bk_of formatter s ins') = map (report_alone tmp_of bk_of formatter s) ins' /\
  Permutation (reports (run_loop tmp_of bk_of formatter s ins)) (reports (run_loop tmp_of bk_of formatter s ins')) /\
  Permutation (s_json (final_session (run_loop tmp_of bk_of formatter s ins)))
              (s_json (final_session (run_loop tmp_of bk_of formatter s ins'))).
Proof. exact order_irrelevant_lemma. Qed.
Print Assumptions order_irrelevant.

(* "in whatever order" REFUTED when a local rustfmt.toml fails to load: the inputs after it are not processed
   (main.rs:360 `?`), so the order decides which files are formatted; holds for every formatter *)
Theorem order_irrelevant_cfgerr_refuted : forall tmp_of bk_of formatter,
  exists (s : session) (ins ins' : list minput),
    Permutation ins ins' /\
    length (reports (run_loop tmp_of bk_of formatter s ins)) = 1%nat /\
    length (reports (run_loop tmp_of bk_of formatter s ins')) = 0%nat.
Proof. exact order_cfgerr_refuted_lemma. Qed.
Print Assumptions order_irrelevant_cfgerr_refuted.

(* "its effective configuration" REFUTED for the emitter options: the emitter is created once from the
   invocation's configuration (lib.rs:451); make_backup / emit_mode / print_misformatted_file_names of the
   per-file rustfmt.toml are not in effect (confirmed on the binary: make_backup = true in a discovered
   rustfmt.toml makes no .bk; the same file given with --config-path does) *)
Theorem effective_config_emitter_refuted :
  exists (tmp_of bk_of : path -> path) (formatter : cfg -> input -> input_result) (scfg c : cfg) (i : input),
    cf_backup c = true /\ cf_backup scfg = false /\ cf_mode c = MFiles /\ cf_mode scfg = MFiles /\
    map rp_files (reports (run_loop tmp_of bk_of formatter (session_of_cfg scfg) [MkIn true false (LOk c) i])) =
      [[(i, [Write i [98; 10]], OutNothing)]] /\
    map rp_files (reports (run_loop tmp_of bk_of formatter (session_of_cfg c) [MkIn true false LNone i])) =
      [[(i, [Remove (i + 1); Write (i + 1) [98; 10]; Rename i (i + 2); Rename (i + 1) i], OutNothing)]].
Proof. exact local_emitter_options_ignored_lemma. Qed.
Print Assumptions effective_config_emitter_refuted.

(* the emitter and its bits never change during a session *)
Theorem emitter_fixed : forall tmp_of bk_of formatter (s : session) (ins : list minput),
  s_emitter (final_session (run_loop tmp_of bk_of formatter s ins)) = s_emitter s /\
  s_bits (final_session (run_loop tmp_of bk_of formatter s ins)) = s_bits s.
Proof. exact emitter_fixed_lemma. Qed.
Print Assumptions emitter_fixed.

(* clause "across repeated runs": the same input twice in one session gives the same report twice *)
Theorem same_input_twice : forall tmp_of bk_of formatter (s : session) (m : minput),
  aborts m = false ->
  reports (run_loop tmp_of bk_of formatter s [m; m]) =
  [report_alone tmp_of bk_of formatter s m; report_alone tmp_of bk_of formatter s m].
Proof. exact same_input_twice_lemma. Qed.
Print Assumptions same_input_twice.

(* ReportedErrors::add is a join (re-exported from C06) *)
Theorem flags_add_assoc_comm_idem :
  (forall a b c, flags_add a (flags_add b c) = flags_add (flags_add a b) c) /\
  (forall a b, flags_add a b = flags_add b a) /\
  (forall a, flags_add a a = a) /\
  (forall a, flags_add flags_zero a = a).
Proof. exact flags_semilattice. Qed.
Print Assumptions flags_add_assoc_comm_idem.
