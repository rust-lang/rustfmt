(* C18/Examples.v — non-vacuity: concrete values meeting the hypotheses of every implication of Props.v, on the
   scratch workspace of Lemmas.v (x_world: members a 2015, b 2021, c 2018; a and b share a lib.rs;
   a -> util at ext/util, b -> util (depname 5) or util2 (depname 7) at ext2/util, both outside the workspace).
   The computed results are the ones observed with the real cargo-fmt binary on that workspace.
   Since the repairs 44e033c / 3ddf33c both switches of Model.v select the repaired code; the examples stated
   through get_targets / execute / exit_code_of show the repaired behaviour, those naming get_targets_recursive /
   exit_code the behaviour before the repairs. *)
From Coq Require Import String Ascii ZArith Sorted.
From V Require Import Base.Text C18.Model C18.Lemmas.
Open Scope N_scope.
Open Scope list_scope.

Definition W5 := x_world 5 105 x_ok.     (* two dependencies called util; run in the workspace root *)
Definition W7 := x_world 7 105 x_ok.     (* distinct dependency names *)
Definition W5a := x_world 5 106 x_ok.    (* run in ws/a *)

(* the switches as they stand: visited keyed by manifest path, a status without code is a failure *)
Example switches_repaired : vkey_all = vkey_path /\ failure_code_of = failure_code_fixed.
Proof. split; reflexivity. Qed.

(* ---------------- Root ---------------- *)
Example root_in_ws_root :
  get_targets W5 5 SRoot None = Ok [MkT 8 1 2015; MkT 10 1 2021; MkT 12 0 2018; MkT 13 0 2015].
Proof. vm_compute. reflexivity. Qed.
Example root_in_member :
  get_targets W5a 5 SRoot None = Ok [MkT 8 1 2015; MkT 13 0 2015].
Proof. vm_compute. reflexivity. Qed.
Example root_manifest_path_member :
  get_targets W5 5 SRoot (Some 6) = Ok [MkT 8 1 2015; MkT 13 0 2015].
Proof. vm_compute. reflexivity. Qed.
Example root_manifest_path_virtual : get_targets W5 5 SRoot (Some 5) = Err ENoTargets.
Proof. vm_compute. reflexivity. Qed.
(* in a subdirectory (cwd = 108 = ws/a/src, no Cargo.toml there): cargo finds the workspace, cargo-fmt no package *)
Example root_in_subdirectory : get_targets (x_world 5 108 x_ok) 5 SRoot None = Err ENoTargets.
Proof. vm_compute. reflexivity. Qed.

(* ---------------- Some ---------------- *)
Example some_a_c :
  get_targets W5 5 (SSome [3; 1]) None = Ok [MkT 8 1 2015; MkT 12 0 2018; MkT 13 0 2015].
Proof. vm_compute. reflexivity. Qed.
Example some_unknown : get_targets W5 5 (SSome [8; 1; 6]) None = Err (ENotMember 6).
Proof. vm_compute. reflexivity. Qed.
Example unknown_hyps :
  w_meta W5 None = Some (x_ws 5) /\ In 6 [8; 1; 6] /\ (forall p, In p (packages (x_ws 5)) -> p_name p <> 6).
Proof.
  split; [reflexivity|]. split; [right; right; left; reflexivity|].
  intros p Hp. cbn in Hp. destruct Hp as [<-|[<-|[<-|[]]]]; discriminate.
Qed.

(* ---------------- All ---------------- *)
(* repaired: both packages called util are formatted *)
Example all_repaired :
  get_targets W5 5 SAll None
  = Ok [MkT 2 0 2018; MkT 4 0 2021; MkT 8 1 2015; MkT 10 1 2021; MkT 12 0 2018; MkT 13 0 2015].
Proof. vm_compute. reflexivity. Qed.
(* before the repair (visited keyed by name): ext2/util/src/lib.rs (4) is missing *)
Example all_name_collision :
  get_targets_gen W5 (get_targets_recursive W5) 5 SAll None
  = Ok [MkT 2 0 2018; MkT 8 1 2015; MkT 10 1 2021; MkT 12 0 2018; MkT 13 0 2015].
Proof. vm_compute. reflexivity. Qed.
Example all_fixed :
  get_targets_fixed W5 5 SAll None
  = Ok [MkT 2 0 2018; MkT 4 0 2021; MkT 8 1 2015; MkT 10 1 2021; MkT 12 0 2018; MkT 13 0 2015].
Proof. vm_compute. reflexivity. Qed.
Example all_distinct_names :
  get_targets W7 5 SAll None
  = Ok [MkT 2 0 2018; MkT 4 0 2021; MkT 8 1 2015; MkT 10 1 2021; MkT 12 0 2018; MkT 13 0 2015].
Proof. vm_compute. reflexivity. Qed.

(* all edges of a table-defined world *)
Definition dep_pairs (w : world) (tbl : list (option path * metadata)) : list (pkgname * path) :=
  flat_map (fun km => flat_map (fun p => flat_map (fun d => match d_path d with
                                                            | Some dir => [(d_name d, w_toml_in w dir)]
                                                            | None => []
                                                            end) (p_deps p)) (packages (snd km))) tbl.
Lemma lookup_meta_in tbl m md : lookup_meta tbl m = Some md -> exists k, In (k, md) tbl.
Proof.
  induction tbl as [|[k md'] tbl IH]; cbn [lookup_meta]; [discriminate|].
  destruct (match k, m with None, None => true | Some a, Some b => a =? b | _, _ => false end).
  - intros H. inversion H; subst. exists k. left. reflexivity.
  - intros H. destruct (IH H) as (k' & Hk'). exists k'. right. exact Hk'.
Qed.
Lemma Edge_in_table w tbl m n mp :
  (forall m0, w_meta w m0 = lookup_meta tbl m0) -> Edge w m n mp -> In (n, mp) (dep_pairs w tbl).
Proof.
  intros Hw (md & p & d & dir & Hm & Hp & Hd & Hn & Hdir & Hmp & _ & _).
  rewrite Hw in Hm. destruct (lookup_meta_in _ _ _ Hm) as (k & Hk).
  unfold dep_pairs. apply in_flat_map. exists (k, md). split; [exact Hk|]. cbn [snd].
  apply in_flat_map. exists p. split; [exact Hp|]. apply in_flat_map. exists d. split; [exact Hd|].
  rewrite Hdir. left. subst. reflexivity.
Qed.
Definition functional_pairs (l : list (N * N)) : bool :=
  forallb (fun a => forallb (fun b => negb (fst a =? fst b) || (snd a =? snd b)) l) l.
Lemma functional_pairs_ok l : functional_pairs l = true ->
  forall n a b, In (n, a) l -> In (n, b) l -> a = b.
Proof.
  unfold functional_pairs. rewrite forallb_forall. intros H n a b Ha Hb.
  specialize (H _ Ha). rewrite forallb_forall in H. specialize (H _ Hb). cbn [fst snd] in H.
  rewrite N.eqb_refl in H. cbn in H. apply N.eqb_eq. exact H.
Qed.

Example distinct_names_hold : distinct_dep_names W7 None.
Proof.
  intros m1 m2 n mp1 mp2 _ He1 _ He2.
  apply (Edge_in_table W7 (x_tbl 7)) in He1; [|intros m0; reflexivity].
  apply (Edge_in_table W7 (x_tbl 7)) in He2; [|intros m0; reflexivity].
  apply (functional_pairs_ok (dep_pairs W7 (x_tbl 7))) with n; [vm_compute; reflexivity|exact He1|exact He2].
Qed.
(* ... and fail in W5, where the name util leads to two manifests *)
Example distinct_names_fail : functional_pairs (dep_pairs W5 (x_tbl 5)) = false.
Proof. vm_compute. reflexivity. Qed.

(* the hypothesis of fuel_enough: every edge key (whatever the switch) lies in a list of 6 identifiers *)
Example fuel_universe : forall m n mp, Reach W5 None m -> Edge W5 m n mp -> In (vkey_all n mp) [2; 5; 7; 9; 1; 3].
Proof.
  intros m n mp _ He. apply (Edge_in_table W5 (x_tbl 5)) in He; [|intros m0; reflexivity].
  assert (Hall : forallb (fun a => existsb (N.eqb (vkey_all (fst a) (snd a))) [2; 5; 7; 9; 1; 3])
                         (dep_pairs W5 (x_tbl 5)) = true) by (vm_compute; reflexivity).
  rewrite forallb_forall in Hall. specialize (Hall _ He). cbn [fst snd] in Hall.
  apply existsb_exists in Hall. destruct Hall as (x & Hx & E). apply N.eqb_eq in E. subst x. exact Hx.
Qed.
Example fuel_enough_applies : (List.length [2; 5; 7; 9; 1; 3] < 7)%nat /\ get_targets W5 7 SAll None <> Err EFuel.
Proof. split; [cbn; lia|]. vm_compute. discriminate. Qed.
(* cyclic path dependencies between two workspaces terminate: x -> y -> x *)
Definition cyc_tbl : list (option path * metadata) :=
  [(None, MkMeta 101 [MkPkg 1 2 [MkSrc 3 0 2021] [MkDep 2 (Some 105)]]);
   (Some 2, MkMeta 101 [MkPkg 1 2 [MkSrc 3 0 2021] [MkDep 2 (Some 105)]]);
   (Some 5, MkMeta 104 [MkPkg 2 5 [MkSrc 6 0 2018] [MkDep 1 (Some 102); MkDep 3 (Some 107)];
                        MkPkg 3 7 [MkSrc 8 0 2015] []])].
Definition Wcyc : world :=
  MkWorld (lookup_meta cyc_tbl) (fun p => p) (fun p => existsb (N.eqb p) [2; 5; 7]) (fun d => d - 100) 101
          (fun _ => 0) x_ok.
Example cyclic_terminates :
  get_targets Wcyc 3 SAll None = Ok [MkT 3 0 2021; MkT 6 0 2018; MkT 8 0 2015] /\
  get_targets Wcyc 2 SAll None = Err EFuel.
Proof. split; vm_compute; reflexivity. Qed.
Example fuel_irrelevant_applies :
  get_targets Wcyc 3 SAll None <> Err EFuel /\ get_targets Wcyc (4 + 3) SAll None = get_targets Wcyc 3 SAll None.
Proof. split; [vm_compute; discriminate|vm_compute; reflexivity]. Qed.

(* ---------------- once / editions ---------------- *)
Definition S5 : tset := [MkT 2 0 2018; MkT 8 1 2015; MkT 10 1 2021; MkT 12 0 2018; MkT 13 0 2015].
Definition S6 : tset := [MkT 2 0 2018; MkT 4 0 2021; MkT 8 1 2015; MkT 10 1 2021; MkT 12 0 2018; MkT 13 0 2015].
Example s5_nodup : NoDup (map t_path S5).
Proof. apply sorted_lt_NoDup. cbn. repeat constructor. Qed.
Example s5_groups : by_edition S5 = [(2015, [8; 13]); (2018, [2; 12]); (2021, [10])].
Proof. vm_compute. reflexivity. Qed.
Example s6_groups : by_edition S6 = [(2015, [8; 13]); (2018, [2; 12]); (2021, [4; 10])].
Proof. vm_compute. reflexivity. Qed.
(* the shared file: a's lib (2015) is inserted before b's (2021) and stays *)
Example shared_file_first_wins :
  kinsert_all t_path [MkT 13 0 2015; MkT 8 1 2015; MkT 13 0 2021; MkT 10 1 2021] []
  = [MkT 8 1 2015; MkT 10 1 2021; MkT 13 0 2015].
Proof. vm_compute. reflexivity. Qed.

(* ---------------- command lines, exit status ---------------- *)
Definition argsC : list text := [txt "--config"; txt "max_width=50"; txt "--check"].
Example planned_s5 :
  map i_argv (planned Normal S5 argsC) =
  [ [AFile 8; AFile 13; AStr (txt "--edition"); AEdition 2015] ++ map AStr argsC;
    [AFile 2; AFile 12; AStr (txt "--edition"); AEdition 2018] ++ map AStr argsC;
    [AFile 10; AStr (txt "--edition"); AEdition 2021] ++ map AStr argsC ].
Proof. vm_compute. reflexivity. Qed.
Example no_spawn_failure : forall i, In i (planned Normal S5 argsC) -> w_child W5 i <> SpawnFailed.
Proof. intros i _. discriminate. Qed.

(* a child world: 2015 exits 0, 2018 is scripted, 2021 exits 7 *)
Definition child_by_edition (s2018 : status) : invocation -> status :=
  fun i => if existsb (fun a => match a with AEdition e => e =? 2018 | _ => false end) (i_argv i) then s2018
           else if existsb (fun a => match a with AEdition e => e =? 2021 | _ => false end) (i_argv i) then Exited 7
           else Exited 0.
Definition o_all : opts := MkOpts false false false [] None None [] true false.
Example exit_code_3 : fst (execute (x_world 5 105 (child_by_edition (Exited 3))) 5 o_all) = 3%Z.
Proof. vm_compute. reflexivity. Qed.
(* since the repair (fix: commit 44e033c) a signal death is a failure; before it this was 7 (the signal was dropped) *)
Example exit_signal_is_failure : fst (execute (x_world 5 105 (child_by_edition Signaled)) 5 o_all) = 1%Z.
Proof. vm_compute. reflexivity. Qed.
(* before the repair the signal death was dropped: the same statuses gave 7 *)
Example exit_signal_dropped_before :
  exit_code [Exited 0; Signaled; Exited 7] = 7%Z /\ exit_code_of [Exited 0; Signaled; Exited 7] = 1%Z.
Proof. split; vm_compute; reflexivity. Qed.
Example spawn_failure_stops :
  let r := execute (x_world 5 105 (child_by_edition SpawnFailed)) 5 o_all in
  fst r = 1%Z /\ List.length (snd r) = 2%nat.
Proof. vm_compute. split; reflexivity. Qed.
Example exit_examples :
  exit_code [Exited 0; Exited 3; Exited 7] = 3%Z /\ exit_code [Signaled; Signaled] = 0%Z /\
  exit_code_fixed [Signaled; Exited 3] = 1%Z /\ exit_code_of [Signaled; Signaled] = 1%Z /\
  exit_code [Exited 0; SpawnFailed; Exited 0] = 1%Z /\
  ~ In Signaled [Exited 0; Exited 3; SpawnFailed].
Proof.
  repeat split; try (vm_compute; reflexivity). intros [H|[H|[H|[]]]]; discriminate.
Qed.
Example execute_exit_hyps :
  let w := x_world 5 105 (child_by_edition (Exited 3)) in
  info_request o_all = false /\ verbosity_of o_all = Some Normal /\ final_args o_all = Some [] /\
  manifest_arg w o_all = Some None /\ get_targets w 5 (strategy_from_opts o_all) None = Ok S6 /\
  (forall i, In i (planned Normal S6 []) -> w_child w i <> Signaled).
Proof.
  repeat split; try (vm_compute; reflexivity).
  intros i Hi. cbn in Hi. destruct Hi as [<-|[<-|[<-|[]]]]; vm_compute; discriminate.
Qed.

(* ---------------- option translation ---------------- *)
Definition o_flags : opts :=
  MkOpts true false false [1; 3] (Some (txt "ws/Cargo.toml")) (Some (txt "short")) [txt "--config"; txt "x=1"] false true.
Example flags_translated :
  final_args o_flags = Some [txt "--config"; txt "x=1"; txt "--check"; txt "-l"] /\
  verbosity_of o_flags = Some Quiet /\ manifest_arg W5 o_flags = Some (Some 5) /\ info_request o_flags = false /\
  strategy_from_opts o_flags = SSome [1; 3].
Proof. repeat split; vm_compute; reflexivity. Qed.
Example check_cases :
  In (txt "--check") [txt "--check"; txt "-x"] /\ ~ In (txt "--check") [txt "-x"].
Proof. split; [left; reflexivity|]. intros [H|[]]. vm_compute in H. discriminate. Qed.
Example list_files_cases :
  has_list_files [txt "--files-with-diff"] /\ ~ has_list_files [txt "-x"].
Proof.
  split; [right; left; reflexivity|]. intros [[H|[]]|[H|[]]]; vm_compute in H; discriminate.
Qed.
Example json_cases :
  has_emit [txt "--emit=files"] /\ ~ has_emit [txt "-x"] /\ ~ In (txt "--check") [txt "-x"] /\
  convert_message_format (txt "json") (translate_check true []) = None.
Proof.
  split; [exists (txt "--emit=files"); split; [left; reflexivity|vm_compute; reflexivity]|].
  split; [intros (x & [<-|[]] & H); vm_compute in H; discriminate|].
  split; [intros [H|[]]; vm_compute in H; discriminate|vm_compute; reflexivity].
Qed.
Example other_format :
  txt "bogus" <> txt "short" /\ txt "bogus" <> txt "json" /\ txt "bogus" <> txt "human".
Proof. repeat split; intros H; vm_compute in H; discriminate. Qed.

(* ---------------- errors ---------------- *)
Example metadata_failure_hyp : w_meta W5 (Some 77) = None /\ get_targets W5 5 SAll (Some 77) = Err EMetadata.
Proof. split; vm_compute; reflexivity. Qed.
Example usage_error_cases :
  verbosity_of (MkOpts true true false [] None None [] false false) = None /\
  final_args (MkOpts false false false [] None (Some (txt "json")) [] false true) = None /\
  manifest_arg W5 (MkOpts false false false [] (Some (txt "ws/a")) None [] false false) = None /\
  info_request (MkOpts false false false [] None None [txt "--help=config"] false false) = true.
Proof. repeat split; vm_compute; reflexivity. Qed.
(* a string that merely ends in Cargo.toml is accepted by cargo-fmt (main.rs:137) and left to cargo metadata *)
Example manifest_suffix_only :
  manifest_arg W5 (MkOpts false false false [] (Some (txt "ws/xCargo.toml")) None [] false false) = Some (Some 5).
Proof. vm_compute. reflexivity. Qed.
