From Coq Require Import String Ascii ZArith Sorted Permutation.
From V Require Import Base.Lists Base.Text C18.Model.
Open Scope N_scope.
Open Scope list_scope.
Arguments N.add : simpl never.
Arguments N.sub : simpl never.
Arguments N.mul : simpl never.
Arguments N.ltb : simpl never.
Arguments N.leb : simpl never.
Arguments N.eqb : simpl never.

Definition tpaths (s : tset) : list path := map t_path s.

(* the second clause speaks of paths only: of the targets that share a canonical path the set holds one *)
Definition selects (w : world) (sel : pkg -> Prop) (s : tset) : Prop :=
  (forall t, In t s -> exists p st, sel p /\ In st (p_targets p) /\ t = from_target w st) /\
  (forall p st, sel p -> In st (p_targets p) -> In (w_canon w (st_src st)) (tpaths s)).

(* Root: main.rs:368-379 *)
Definition root_in_workspace_root (w : world) (marg : option path) (md : metadata) : bool :=
  match marg with
  | Some m => w_canon w (workspace_root md) =? m
  | None => w_canon w (workspace_root md) =? w_cwd w
  end.
Definition root_current_manifest (w : world) (marg : option path) : path :=
  match marg with
  | Some m => w_canon w m
  | None => w_toml_in w (w_cwd w)
  end.
(* the packages whose targets Root inserts, in insertion order *)
Definition root_packages (w : world) (marg : option path) (md : metadata) : list pkg :=
  match packages md with
  | [p] => [p]
  | ps => filter (fun p => root_in_workspace_root w marg md
                           || (w_canon w (p_manifest p) =? root_current_manifest w marg)) ps
  end.
Definition root_selected (w : world) (marg : option path) (md : metadata) (p : pkg) : Prop :=
  In p (packages md) /\
  (List.length (packages md) = 1%nat \/ root_in_workspace_root w marg md = true
   \/ w_canon w (p_manifest p) = root_current_manifest w marg).

(* the first: main.rs:440-465 strikes a name off the hitlist at its first match *)
Definition first_with_name (ps : list pkg) (p : pkg) : Prop :=
  exists pre post, ps = pre ++ p :: post /\ forall q, In q pre -> p_name q <> p_name p.
Definition some_selected (hitlist : list pkgname) (md : metadata) (p : pkg) : Prop :=
  In (p_name p) hitlist /\ first_with_name (packages md) p.
(* the packages whose targets -p inserts, in insertion order *)
Fixpoint hit_list (ps : list pkg) (hs : nset) : list pkg :=
  match ps with
  | [] => []
  | p :: ps' => if fst (nset_remove (p_name p) hs)
                then p :: hit_list ps' (snd (nset_remove (p_name p) hs))
                else hit_list ps' (snd (nset_remove (p_name p) hs))
  end.

(* the test of main.rs:420-435 without its look into visited *)
Definition Edge (w : world) (m : option path) (n : pkgname) (mp : path) : Prop :=
  exists md p d dir,
    w_meta w m = Some md /\ In p (packages md) /\ In d (p_deps p) /\ d_name d = n /\
    d_path d = Some dir /\ mp = w_toml_in w dir /\ w_exists w mp = true /\
    (forall q, In q (packages md) -> p_manifest q <> mp).
Inductive Reach (w : world) (root : option path) : option path -> Prop :=
| Reach_root : Reach w root root
| Reach_step : forall m n mp, Reach w root m -> Edge w m n mp -> Reach w root (Some mp).
Definition all_selected (w : world) (root : option path) (p : pkg) : Prop :=
  exists m md, Reach w root m /\ w_meta w m = Some md /\ In p (packages md).
(* what completeness needs while visited is keyed by the dependency name, as in main.rs (vkey_name) *)
Definition distinct_dep_names (w : world) (root : option path) : Prop :=
  forall m1 m2 n mp1 mp2,
    Reach w root m1 -> Edge w m1 n mp1 -> Reach w root m2 -> Edge w m2 n mp2 -> mp1 = mp2.

Definition planned (v : verbosity) (s : tset) (fmt_args : list text) : list invocation :=
  map (fun g => mk_invocation v (fst g) (snd g) fmt_args) (by_edition s).
Fixpoint upto_spawn_failure (w : world) (pl : list invocation) : list invocation :=
  match pl with
  | [] => []
  | i :: r => match w_child w i with SpawnFailed => [i] | _ => i :: upto_spawn_failure w r end
  end.

Definition verbosity_of (o : opts) : option verbosity :=
  match o_verbose o, o_quiet o with
  | false, false => Some Normal
  | false, true => Some Quiet
  | true, false => Some Verbose
  | true, true => None
  end.
Definition final_args (o : opts) : option (list text) :=
  let a := translate_check (o_check o) (o_rustfmt_options o) in
  match o_message_format o with
  | Some mf => convert_message_format mf a
  | None => Some a
  end.
(* Some marg = the manifest argument handed to format_crate; None = rejected *)
Definition manifest_arg (w : world) (o : opts) : option (option path) :=
  match o_manifest_path o with
  | Some specified => if ends_with (txt "Cargo.toml") specified then Some (Some (w_path_of w specified)) else None
  | None => Some None
  end.
Definition info_request (o : opts) : bool := o_version o || existsb is_info_option (o_rustfmt_options o).
Definition has_list_files (a : list text) : Prop := In (txt "-l") a \/ In (txt "--files-with-diff") a.
Definition has_emit (a : list text) : Prop := exists x, In x a /\ starts_with (txt "--emit") x = true.

(* The two switches of Model.v.  Whatever is stated of get_targets or exit_code_of is proved from these
   disjunctions and not from the value of a switch, so it holds at either setting. *)
Lemma vkey_all_cases : vkey_all = vkey_name \/ vkey_all = vkey_path.
Proof. first [left; reflexivity|right; reflexivity]. Qed.
Lemma failure_code_of_cases : failure_code_of = failure_code \/ failure_code_of = failure_code_fixed.
Proof. first [left; reflexivity|right; reflexivity]. Qed.

Lemma sorted_lt_NoDup (l : list N) : StronglySorted N.lt l -> NoDup l.
Proof.
  induction 1 as [|x l Hl IH Hall]; constructor; [|exact IH].
  intros Hin. rewrite Forall_forall in Hall. specialize (Hall x Hin). lia.
Qed.

Lemma existsb_orb {A} (f g : A -> bool) l : existsb (fun x => f x || g x) l = existsb f l || existsb g l.
Proof.
  induction l as [|x l IH]; [reflexivity|]. cbn [existsb]. rewrite IH.
  destruct (f x), (g x), (existsb f l); reflexivity.
Qed.

Lemma existsb_text_In (c : text) (l : list text) : existsb (fun a => eqb_text a c) l = true <-> In c l.
Proof.
  rewrite existsb_exists. split.
  - intros (x & Hx & E). apply eqb_text_spec in E. subst. exact Hx.
  - intros H. exists c. split; [exact H|apply eqb_text_spec; reflexivity].
Qed.

Section KeyedLemmas.
Context {A : Type} (key : A -> N).

Definition ksorted (s : list A) : Prop := StronglySorted (fun a b => key a < key b) s.

Lemma kinsert_cons x u s :
  kinsert key x (u :: s) = match key x ?= key u with
                           | Lt => x :: u :: s
                           | Eq => u :: s
                           | Gt => u :: kinsert key x s
                           end.
Proof. cbn [kinsert]. rewrite N.ltb_compare, N.eqb_compare. destruct (key x ?= key u); reflexivity. Qed.

Lemma kinsert_from x s y : In y (kinsert key x s) -> y = x \/ In y s.
Proof.
  induction s as [|u s IH]; [intros [H|[]]; auto|].
  rewrite kinsert_cons. destruct (key x ?= key u); cbn [In]; [auto|intros [H|H]; auto|].
  intros [H|H]; [auto|]. destruct (IH H); auto.
Qed.

Lemma kinsert_keeps x s y : In y s -> In y (kinsert key x s).
Proof.
  induction s as [|u s IH]; [intros []|].
  rewrite kinsert_cons. destruct (key x ?= key u); cbn [In]; [auto|auto|].
  intros [H|H]; [left; exact H|right; exact (IH H)].
Qed.

Lemma kinsert_keys x s k : In k (map key (kinsert key x s)) <-> key x = k \/ In k (map key s).
Proof.
  induction s as [|u s IH]; [reflexivity|].
  rewrite kinsert_cons. destruct (N.compare_spec (key x) (key u)) as [E|_|_]; cbn [map In].
  - rewrite E. split; [auto|intros [H|H]; [left|]; exact H].
  - reflexivity.
  - rewrite IH. split; intros [H|[H|H]]; auto.
Qed.

(* BTreeSet::insert does not replace *)
Lemma kinsert_same x s : ksorted s -> In (key x) (map key s) -> kinsert key x s = s.
Proof.
  induction s as [|u s IH]; intros Hs Hin; [destruct Hin|].
  apply SS_cons_iff in Hs as [Hs Hall].
  rewrite kinsert_cons. destruct (N.compare_spec (key x) (key u)) as [E|Hlt|Hgt]; [reflexivity| |].
  - exfalso. destruct Hin as [Hin|Hin]; [lia|].
    apply in_map_iff in Hin. destruct Hin as (b & Hb & Hbs). specialize (Hall b Hbs). lia.
  - f_equal. apply IH; [exact Hs|]. destruct Hin as [Hin|Hin]; [lia|exact Hin].
Qed.

Lemma kinsert_sorted x s : ksorted s -> ksorted (kinsert key x s).
Proof.
  induction s as [|u s IH]; intros Hs; [repeat constructor|].
  pose proof (proj1 (SS_cons_iff _ _ _) Hs) as [Hs' Hall].
  rewrite kinsert_cons. destruct (N.compare_spec (key x) (key u)) as [E|Hlt|Hgt]; [exact Hs| |].
  - apply SS_cons_iff. split; [exact Hs|]. intros b [<-|Hb]; [exact Hlt|]. specialize (Hall b Hb). lia.
  - apply SS_cons_iff. split; [exact (IH Hs')|]. intros b Hb.
    destruct (kinsert_from x s b Hb) as [->|Hb']; [exact Hgt|exact (Hall b Hb')].
Qed.

Lemma kinsert_In x s y : ksorted s ->
  (In y (kinsert key x s) <-> In y s \/ (y = x /\ ~ In (key x) (map key s))).
Proof.
  intros Hs. split.
  - intros Hy. destruct (in_dec N.eq_dec (key x) (map key s)) as [Hin|Hnin].
    + left. rewrite (kinsert_same _ _ Hs Hin) in Hy. exact Hy.
    + destruct (kinsert_from _ _ _ Hy); auto.
  - intros [Hy|[-> Hn]]; [exact (kinsert_keeps _ _ _ Hy)|].
    (* some element of the result has the key of x; it is not in s, so it is x *)
    assert (Hk : In (key x) (map key (kinsert key x s))) by (apply kinsert_keys; left; reflexivity).
    apply in_map_iff in Hk. destruct Hk as (z & Hz & Hin).
    destruct (kinsert_from _ _ _ Hin) as [->|Hs']; [exact Hin|].
    exfalso. apply Hn. rewrite <- Hz. apply in_map. exact Hs'.
Qed.

Lemma kinsert_all_cons x l s : kinsert_all key (x :: l) s = kinsert_all key l (kinsert key x s).
Proof. reflexivity. Qed.

Lemma kinsert_all_app l1 l2 s : kinsert_all key (l1 ++ l2) s = kinsert_all key l2 (kinsert_all key l1 s).
Proof. apply fold_left_app. Qed.

Lemma kinsert_all_sorted l : forall s, ksorted s -> ksorted (kinsert_all key l s).
Proof.
  induction l as [|x l IH]; intros s Hs; [exact Hs|].
  apply IH, kinsert_sorted, Hs.
Qed.

Lemma kinsert_all_keys l : forall s k,
  In k (map key (kinsert_all key l s)) <-> In k (map key l) \/ In k (map key s).
Proof.
  induction l as [|x l IH]; intros s k.
  - split; [auto|intros [[]|H]; exact H].
  - rewrite kinsert_all_cons, IH, kinsert_keys. cbn [map In].
    split; [intros [H|[H|H]]; auto|intros [[H|H]|H]; auto].
Qed.

Lemma kinsert_all_keeps l : forall s y, In y s -> In y (kinsert_all key l s).
Proof.
  induction l as [|x l IH]; intros s y Hy; [exact Hy|].
  apply IH, kinsert_keeps, Hy.
Qed.

Lemma kinsert_all_from l : forall s y, In y (kinsert_all key l s) -> In y l \/ In y s.
Proof.
  induction l as [|x l IH]; intros s y Hy; [right; exact Hy|].
  destruct (IH _ _ Hy) as [H|H]; [left; right; exact H|].
  destruct (kinsert_from _ _ _ H) as [->|H']; [left; left; reflexivity|right; exact H'].
Qed.

Lemma ksorted_keys s : ksorted s -> StronglySorted N.lt (map key s).
Proof.
  induction 1 as [|u s Hs IH Hall]; cbn [map]; constructor; [exact IH|].
  apply Forall_map. exact Hall.
Qed.

(* the shape in which Props.v states edition_of_target; first_with_name is the case key := p_name *)
Definition first_by (l : list A) (x : A) : Prop :=
  exists l1 l2, l = l1 ++ x :: l2 /\ ~ In (key x) (map key l1).

Lemma first_by_nil x : ~ first_by [] x.
Proof. intros ([|a l1] & l2 & E & _); discriminate. Qed.

Lemma first_by_cons a l x : first_by (a :: l) x <-> x = a \/ (key a <> key x /\ first_by l x).
Proof.
  split.
  - intros ([|b l1] & l2 & E & Hn); injection E as -> ->; [left; reflexivity|right].
    cbn [map In] in Hn. split; [auto|]. exists l1, l2. auto.
  - intros [->|[Hne (l1 & l2 & -> & Hn)]].
    + exists [], l. split; [reflexivity|intros []].
    + exists (a :: l1), l2. split; [reflexivity|]. intros [H|H]; [exact (Hne H)|exact (Hn H)].
Qed.

Lemma kinsert_all_In l : forall s y, ksorted s ->
  (In y (kinsert_all key l s) <-> In y s \/ (~ In (key y) (map key s) /\ first_by l y)).
Proof.
  induction l as [|x l IH]; intros s y Hs.
  - split; [auto|]. intros [H|[_ H]]; [exact H|destruct (first_by_nil y H)].
  - rewrite kinsert_all_cons, (IH _ _ (kinsert_sorted x _ Hs)), (kinsert_In x _ y Hs), kinsert_keys, first_by_cons.
    split.
    + intros [[H|[-> Hn]]|[Hn Hf]]; auto. right. split; [auto|]. right. split; [auto|exact Hf].
    + intros [H|[Hn [->|[Hne Hf]]]]; auto. right. split; [intros [E|E]; auto|exact Hf].
Qed.

End KeyedLemmas.

Lemma first_with_name_by ps p : first_with_name ps p <-> first_by p_name ps p.
Proof.
  split; intros (pre & post & E & H); exists pre, post; (split; [exact E|]).
  - intros Hin. apply in_map_iff in Hin. destruct Hin as (q & Hq & Hin). exact (H q Hin Hq).
  - intros q Hq E'. apply H. rewrite <- E'. apply in_map. exact Hq.
Qed.

Definition tsorted (s : tset) : Prop := ksorted t_path s.
Lemma tsorted_nil : tsorted [].
Proof. constructor. Qed.

Lemma edition_of_target_lemma (l : list target) (t : target) :
  In t (kinsert_all t_path l []) <-> first_by t_path l t.
Proof. rewrite (kinsert_all_In t_path l [] t tsorted_nil). cbn [map In]. split; [intros [[]|[_ H]]; exact H|auto]. Qed.

Definition nsorted (s : nset) : Prop := ksorted (fun x : N => x) s.

Lemma nset_mem_iff n s : nset_mem n s = true <-> In n s.
Proof.
  unfold nset_mem. rewrite existsb_exists. split.
  - intros (x & Hx & E). apply N.eqb_eq in E. subst. exact Hx.
  - intros H. exists n. split; [exact H|apply N.eqb_refl].
Qed.
Lemma nset_mem_false n s : nset_mem n s = false <-> ~ In n s.
Proof. rewrite <- nset_mem_iff. symmetry. apply not_true_iff_false. Qed.

Lemma nset_insert_In n s k : In k (nset_insert n s) <-> n = k \/ In k s.
Proof. pose proof (kinsert_keys (fun x : N => x) n s k) as H. rewrite !map_id in H. exact H. Qed.

Lemma nset_of_list_sorted (l : list N) : nsorted (fold_left (fun h n => nset_insert n h) l []).
Proof. apply (kinsert_all_sorted (fun x : N => x)). constructor. Qed.

Lemma nset_of_list_In (l : list N) k : In k (fold_left (fun h n => nset_insert n h) l []) <-> In k l.
Proof.
  pose proof (kinsert_all_keys (fun x : N => x) l [] k) as H. rewrite !map_id in H.
  rewrite H. split; [intros [Hk|[]]; exact Hk|auto].
Qed.

Lemma nset_remove_fst n s : fst (nset_remove n s) = nset_mem n s.
Proof.
  induction s as [|u s IH]; [reflexivity|]. cbn [nset_remove nset_mem existsb].
  destruct (n =? u); [reflexivity|]. destruct (nset_remove n s). exact IH.
Qed.

Lemma nset_remove_snd n s : nsorted s ->
  nsorted (snd (nset_remove n s)) /\ forall x, In x (snd (nset_remove n s)) <-> In x s /\ n <> x.
Proof.
  induction s as [|u s IH]; intros Hs.
  - split; [constructor|]. intros x. split; [intros []|intros [[] _]].
  - apply SS_cons_iff in Hs as [Hs Hall].
    destruct (IH Hs) as [IHs IHin]. cbn [nset_remove]. destruct (N.eqb_spec n u) as [<-|Hne].
    + cbn [snd In]. split; [exact Hs|]. intros x. split; [|intros [[E|H] Hne]; [destruct (Hne E)|exact H]].
      intros H. specialize (Hall _ H). split; [right; exact H|lia].
    + destruct (nset_remove n s) as [b r]. cbn [snd In] in *. split.
      * apply SS_cons_iff. split; [exact IHs|]. intros x Hx. apply Hall, IHin, Hx.
      * intros x. rewrite IHin. split; [intros [<-|[H Hn]]; auto|intros [[E|H] Hn]; auto].
Qed.

Fixpoint remaining (ps : list pkg) (hs : nset) : nset :=
  match ps with
  | [] => hs
  | p :: ps' => remaining ps' (snd (nset_remove (p_name p) hs))
  end.

Section Targets.
Variable w : world.

Lemma add_targets_app l1 l2 s : add_targets w (l1 ++ l2) s = add_targets w l2 (add_targets w l1 s).
Proof. unfold add_targets. rewrite map_app. apply kinsert_all_app. Qed.

Lemma add_targets_sorted ts s : tsorted s -> tsorted (add_targets w ts s).
Proof. apply kinsert_all_sorted. Qed.

Lemma add_targets_paths ts s k :
  In k (tpaths (add_targets w ts s)) <-> In k (map (fun st => w_canon w (st_src st)) ts) \/ In k (tpaths s).
Proof. unfold tpaths, add_targets. rewrite kinsert_all_keys, map_map. reflexivity. Qed.

Lemma add_targets_keeps ts s t : In t s -> In t (add_targets w ts s).
Proof. apply kinsert_all_keeps. Qed.

Lemma add_targets_from ts s t :
  In t (add_targets w ts s) -> (exists st, In st ts /\ t = from_target w st) \/ In t s.
Proof.
  intros H. destruct (kinsert_all_from _ _ _ _ H) as [H1|H1]; [left|right; exact H1].
  apply in_map_iff in H1. destruct H1 as (st & <- & Hst). exists st. split; [exact Hst|reflexivity].
Qed.

Lemma selects_of_list (sel : pkg -> Prop) (pkgs : list pkg) :
  (forall p, sel p <-> In p pkgs) -> selects w sel (add_targets w (flat_map p_targets pkgs) []).
Proof.
  intros Hsel. split.
  - intros t Ht. destruct (add_targets_from _ _ _ Ht) as [(st & Hst & ->)|[]].
    apply in_flat_map in Hst. destruct Hst as (p & Hp & Hst).
    exists p, st. split; [apply Hsel; exact Hp|split; [exact Hst|reflexivity]].
  - intros p st Hp Hst. apply add_targets_paths. left. apply (in_map (fun st => w_canon w (st_src st))).
    apply in_flat_map. exists p. split; [apply Hsel; exact Hp|exact Hst].
Qed.

Definition nonempty (r : res tset) : res tset :=
  match r with
  | Err e => Err e
  | Ok [] => Err ENoTargets
  | Ok s => Ok s
  end.
Definition targets_of (r : res (tset * nset)) : res tset :=
  match r with Ok x => Ok (fst x) | Err e => Err e end.

Lemma nonempty_ok r s : nonempty r = Ok s -> r = Ok s.
Proof. destruct r as [[|t s0]|e]; [discriminate|exact (fun H => H)|discriminate]. Qed.
Lemma nonempty_err r e : nonempty r = Err e -> e = ENoTargets \/ r = Err e.
Proof. destruct r as [[|t s0]|e0]; [intros [= <-]; left; reflexivity|discriminate|right; assumption]. Qed.
Lemma targets_of_ok r s : targets_of r = Ok s -> exists v, r = Ok (s, v).
Proof. destruct r as [[s0 v]|e]; [|discriminate]. intros [= <-]. exists v. reflexivity. Qed.
Lemma targets_of_err r e : targets_of r = Err e -> r = Err e.
Proof. destruct r as [x|e0]; [discriminate|]. intros [= ->]. reflexivity. Qed.

Lemma get_targets_gen_eq rec_all fuel st marg :
  get_targets_gen w rec_all fuel st marg =
  nonempty match st with
           | SRoot => get_targets_root_only w marg []
           | SAll => targets_of (rec_all fuel marg ([], []))
           | SSome hitlist => get_targets_with_hitlist w marg hitlist []
           end.
Proof. reflexivity. Qed.

Lemma root_only_eq marg s :
  get_targets_root_only w marg s =
  match w_meta w marg with
  | Some md => Ok (add_targets w (flat_map p_targets (root_packages w marg md)) s)
  | None => Err EMetadata
  end.
Proof.
  unfold get_targets_root_only, root_packages, root_in_workspace_root, root_current_manifest.
  destruct (w_meta w marg) as [md|]; [|reflexivity].
  destruct (packages md) as [|p [|p' ps]].
  - destruct marg; reflexivity.
  - cbn [flat_map]. rewrite app_nil_r. destruct marg; reflexivity.
  - destruct marg; reflexivity.
Qed.

Lemma root_packages_iff marg md p : In p (root_packages w marg md) <-> root_selected w marg md p.
Proof.
  unfold root_packages, root_selected.
  destruct (packages md) as [|a [|b ps]].
  - split; [intros []|intros [[] _]].
  - cbn [List.length]. split; [auto|intros [H _]; exact H].
  - rewrite filter_In, orb_true_iff, N.eqb_eq. cbn [List.length]. split; [intros [Hin H]; auto|].
    intros [Hin [H|H]]; [discriminate|auto].
Qed.

Lemma hitlist_loop_eq ps : forall hs s,
  hitlist_loop w ps hs s = (remaining ps hs, add_targets w (flat_map p_targets (hit_list ps hs)) s).
Proof.
  induction ps as [|p ps IH]; intros hs s; cbn [hitlist_loop remaining hit_list flat_map]; [reflexivity|].
  destruct (nset_remove (p_name p) hs) as [found hs']. cbn [fst snd].
  destruct found; rewrite IH; [|reflexivity].
  cbn [flat_map]. rewrite add_targets_app. reflexivity.
Qed.

Lemma with_hitlist_eq marg hitlist s :
  get_targets_with_hitlist w marg hitlist s =
  match w_meta w marg with
  | Some md =>
      let hs := fold_left (fun h n => nset_insert n h) hitlist [] in
      match remaining (packages md) hs with
      | [] => Ok (add_targets w (flat_map p_targets (hit_list (packages md) hs)) s)
      | n :: _ => Err (ENotMember n)
      end
  | None => Err EMetadata
  end.
Proof.
  unfold get_targets_with_hitlist. destruct (w_meta w marg) as [md|]; [|reflexivity].
  rewrite hitlist_loop_eq. reflexivity.
Qed.
End Targets.

Lemma remaining_spec ps : forall hs, nsorted hs ->
  nsorted (remaining ps hs) /\
  (forall k, In k (remaining ps hs) <-> In k hs /\ forall p, In p ps -> p_name p <> k).
Proof.
  induction ps as [|a ps IH]; intros hs Hs; cbn [remaining].
  - split; [exact Hs|]. intros k. split; [intros H; split; [exact H|intros p []]|intros [H _]; exact H].
  - destruct (nset_remove_snd (p_name a) hs Hs) as [Hs' Hin]. destruct (IH _ Hs') as [H1 H2]. split; [exact H1|].
    intros k. rewrite H2, Hin. split.
    + intros [[Hk Hne] Hall]. split; [exact Hk|]. intros p [<-|Hp]; [exact Hne|exact (Hall p Hp)].
    + intros [Hk Hall]. split; [split; [exact Hk|exact (Hall a (or_introl eq_refl))]|].
      intros p Hp. exact (Hall p (or_intror Hp)).
Qed.

Lemma remaining_hitlist hitlist ps n :
  In n (remaining ps (fold_left (fun h n => nset_insert n h) hitlist [])) <->
  In n hitlist /\ forall p, In p ps -> p_name p <> n.
Proof.
  rewrite (proj2 (remaining_spec ps _ (nset_of_list_sorted hitlist))), nset_of_list_In. reflexivity.
Qed.

Lemma hit_list_spec ps : forall hs p, nsorted hs ->
  (In p (hit_list ps hs) <-> In (p_name p) hs /\ first_with_name ps p).
Proof.
  intros hs p. rewrite first_with_name_by. revert hs.
  induction ps as [|a ps IH]; intros hs Hs; cbn [hit_list].
  - split; [intros []|intros [_ H]; exact (first_by_nil p_name p H)].
  - rewrite first_by_cons, nset_remove_fst.
    destruct (nset_remove_snd (p_name a) hs Hs) as [Hs' Hsnd]. specialize (IH _ Hs'). rewrite Hsnd in IH.
    destruct (nset_mem (p_name a) hs) eqn:Ea; cbn [In]; rewrite IH.
    + apply nset_mem_iff in Ea. split; [intros [<-|[[Hin Hne] Hf]]; auto|intros [Hin [->|[Hne Hf]]]; auto].
    + apply nset_mem_false in Ea. split; [intros [[Hin Hne] Hf]; auto|].
      intros [Hin [->|[Hne Hf]]]; [contradiction|auto].
Qed.

(* a loop over a list whose body may fail: the shape of both loops of get_targets_recursive *)
Section ResFold.
Context {A S : Type}.

Fixpoint res_fold (f : A -> S -> res S) (l : list A) (st : S) : res S :=
  match l with
  | [] => Ok st
  | x :: l' => match f x st with Ok st' => res_fold f l' st' | Err e => Err e end
  end.

(* R is a preorder along which the body moves the state; Q x is what the body leaves behind for x, kept along R *)
Lemma res_fold_ok f (R : S -> S -> Prop) (Q : A -> S -> Prop) l :
  (forall st, R st st) -> (forall a b c, R a b -> R b c -> R a c) ->
  (forall x a b, R a b -> Q x a -> Q x b) ->
  (forall x st st', In x l -> f x st = Ok st' -> R st st' /\ Q x st') ->
  forall st st', res_fold f l st = Ok st' -> R st st' /\ forall x, In x l -> Q x st'.
Proof.
  intros Hrefl Htrans Hkeep. induction l as [|x l IH]; intros Hf st st' Hrun; cbn [res_fold] in Hrun.
  - injection Hrun as <-. split; [apply Hrefl|intros x []].
  - destruct (f x st) as [st1|e] eqn:E; [|discriminate].
    destruct (Hf x st st1 (or_introl eq_refl) E) as [H1 Hq].
    destruct (IH (fun y a b Hy => Hf y a b (or_intror Hy)) st1 st' Hrun) as [H2 Hk].
    split; [exact (Htrans _ _ _ H1 H2)|]. intros y [<-|Hy]; [exact (Hkeep _ _ _ H2 Hq)|exact (Hk y Hy)].
Qed.

Lemma res_fold_no_err f (e : error) (I : S -> Prop) l :
  (forall x st, In x l -> I st -> f x st <> Err e /\ forall st', f x st = Ok st' -> I st') ->
  forall st, I st -> res_fold f l st <> Err e.
Proof.
  induction l as [|x l IH]; intros Hf st Hi; cbn [res_fold]; [discriminate|].
  destruct (Hf x st (or_introl eq_refl) Hi) as [Hne Hk]. destruct (f x st) as [st1|e0].
  - exact (IH (fun y a Hy => Hf y a (or_intror Hy)) st1 (Hk st1 eq_refl)).
  - intros [= ->]. exact (Hne eq_refl).
Qed.

Lemma res_fold_le f1 f2 (e : error) :
  (forall x st, f1 x st <> Err e -> f2 x st = f1 x st) ->
  forall l st, res_fold f1 l st <> Err e -> res_fold f2 l st = res_fold f1 l st.
Proof.
  intros Hle. induction l as [|x l IH]; intros st Hne; cbn [res_fold] in *; [reflexivity|].
  rewrite Hle.
  - destruct (f1 x st); [exact (IH _ Hne)|reflexivity].
  - intros E. rewrite E in Hne. exact (Hne eq_refl).
Qed.
End ResFold.

Section AllRec.
Variable w : world.
Variable root : option path.
Variable vkey : pkgname -> path -> N.

(* the test of main.rs:420-435: the manifest on which the recursion is called for dependency d *)
Definition follow (md : metadata) (v : nset) (d : dep) : option path :=
  match d_path d with
  | None => None
  | Some dir =>
      let mp := w_toml_in w dir in
      if nset_mem (vkey (d_name d) mp) v then None
      else if w_exists w mp && negb (existsb (fun p => p_manifest p =? mp) (packages md)) then Some mp
      else None
  end.

Definition dep_body (recf : path -> tset * nset -> res (tset * nset)) (md : metadata) (d : dep)
           (st : tset * nset) : res (tset * nset) :=
  match follow md (snd st) d with
  | None => Ok st
  | Some mp => recf mp (fst st, nset_insert (vkey (d_name d) mp) (snd st))
  end.
Definition pkg_body recf (md : metadata) (p : pkg) (st : tset * nset) : res (tset * nset) :=
  res_fold (dep_body recf md) (p_deps p) (add_targets w (p_targets p) (fst st), snd st).

Lemma deps_loop_eq recf md ds : forall st, deps_loop w vkey recf md ds st = res_fold (dep_body recf md) ds st.
Proof.
  induction ds as [|d ds IH]; intros st; [reflexivity|].
  cbn [deps_loop res_fold]. unfold dep_body, follow. destruct (d_path d) as [dir|]; [|apply IH].
  destruct (nset_mem _ (snd st)); [apply IH|]. destruct (_ && _); [|apply IH].
  destruct (recf _ _); [apply IH|reflexivity].
Qed.

Lemma pkgs_loop_eq recf md ps : forall st, pkgs_loop w vkey recf md ps st = res_fold (pkg_body recf md) ps st.
Proof.
  induction ps as [|p ps IH]; intros st; [reflexivity|].
  cbn [pkgs_loop res_fold]. unfold pkg_body. rewrite deps_loop_eq.
  destruct (res_fold _ (p_deps p) _); [apply IH|reflexivity].
Qed.

Lemma rec_gen_S_eq f m st :
  rec_gen w vkey (S f) m st =
  match w_meta w m with
  | None => Err EMetadata
  | Some md => res_fold (pkg_body (fun mp => rec_gen w vkey f (Some mp)) md) (packages md) st
  end.
Proof. cbn [rec_gen]. destruct (w_meta w m); [apply pkgs_loop_eq|reflexivity]. Qed.

Lemma rec_gen_one_more_fuel : forall f m st,
  rec_gen w vkey f m st <> Err EFuel -> rec_gen w vkey (S f) m st = rec_gen w vkey f m st.
Proof.
  induction f as [|f IH]; intros m st Hne; [destruct (Hne eq_refl)|].
  rewrite !rec_gen_S_eq in *. destruct (w_meta w m) as [md|]; [|reflexivity].
  apply (res_fold_le _ _ EFuel); [|exact Hne]. intros p st1. apply res_fold_le. intros d st2.
  unfold dep_body. destruct (follow md (snd st2) d); [apply IH|reflexivity].
Qed.

Lemma rec_gen_more_fuel f k m st :
  rec_gen w vkey f m st <> Err EFuel -> rec_gen w vkey (k + f) m st = rec_gen w vkey f m st.
Proof.
  intros Hne. induction k as [|k IH]; [reflexivity|]. cbn [Nat.add].
  rewrite rec_gen_one_more_fuel; rewrite IH; [reflexivity|exact Hne].
Qed.

(* every edge of the metadata md that leaves through the dependency d has its key in v *)
Definition dep_keyed (md : metadata) (d : dep) (v : nset) : Prop :=
  forall dir, d_path d = Some dir -> w_exists w (w_toml_in w dir) = true ->
              (forall q, In q (packages md) -> p_manifest q <> w_toml_in w dir) ->
              In (vkey (d_name d) (w_toml_in w dir)) v.

Lemma dep_keyed_mono md d v v' : incl v v' -> dep_keyed md d v -> dep_keyed md d v'.
Proof. intros Hsub H dir Hdir Hex Hnm. exact (Hsub _ (H dir Hdir Hex Hnm)). Qed.

Lemma member_check_false (ps : list pkg) (mp : path) :
  existsb (fun p => p_manifest p =? mp) ps = false <-> (forall q, In q ps -> p_manifest q <> mp).
Proof.
  rewrite <- not_true_iff_false, existsb_exists. split.
  - intros H q Hq E. apply H. exists q. split; [exact Hq|apply N.eqb_eq; exact E].
  - intros H (q & Hq & E). apply N.eqb_eq in E. exact (H q Hq E).
Qed.

Lemma follow_Some m md p d v mp :
  w_meta w m = Some md -> In p (packages md) -> In d (p_deps p) -> follow md v d = Some mp ->
  Edge w m (d_name d) mp /\ ~ In (vkey (d_name d) mp) v /\
  forall v', In (vkey (d_name d) mp) v' -> dep_keyed md d v'.
Proof.
  unfold follow. intros Hm Hp Hd. destruct (d_path d) as [dir|] eqn:Hdir; [|discriminate].
  destruct (nset_mem _ v) eqn:Emem; [discriminate|].
  destruct (_ && _) eqn:Etest; [|discriminate]. intros [= <-].
  apply andb_true_iff in Etest. destruct Etest as [Eex Enm].
  apply negb_true_iff in Enm. rewrite member_check_false in Enm.
  split; [exists md, p, d, dir; auto 10|]. split; [apply nset_mem_false; exact Emem|].
  intros v' Hv' dir' Hdir' _ _. rewrite Hdir in Hdir'. injection Hdir' as <-. exact Hv'.
Qed.

Lemma follow_None md v d : follow md v d = None -> dep_keyed md d v.
Proof.
  unfold follow. intros H dir Hd Hex Hnm. apply member_check_false in Hnm. rewrite Hd, Hex, Hnm in H.
  apply nset_mem_iff. destruct (nset_mem _ v); [reflexivity|discriminate].
Qed.

Definition from_selected (t : target) : Prop :=
  exists p st, all_selected w root p /\ In st (p_targets p) /\ t = from_target w st.
Definition selected_set (s : tset) : Prop := tsorted s /\ forall t, In t s -> from_selected t.
Definition pkg_done (md : metadata) (p : pkg) (st : tset * nset) : Prop :=
  incl (map (fun st0 => w_canon w (st_src st0)) (p_targets p)) (tpaths (fst st)) /\
  forall d, In d (p_deps p) -> dep_keyed md d (snd st).
Definition finished (m : option path) (st : tset * nset) : Prop :=
  forall md p, w_meta w m = Some md -> In p (packages md) -> pkg_done md p st.

(* the R of res_fold_ok for both loops: what a stretch of the recursion does to (targets, visited).
   Completeness rests on step_new: a key enters visited only for an edge whose end is finished *)
Record step (st st' : tset * nset) : Prop := MkStep {
  step_paths : incl (tpaths (fst st)) (tpaths (fst st'));
  step_vis : incl (snd st) (snd st');
  step_selected : selected_set (fst st) -> selected_set (fst st');
  step_new : forall k, In k (snd st') ->
     In k (snd st) \/ exists c n mp, Reach w root c /\ Edge w c n mp /\ k = vkey n mp /\ finished (Some mp) st'
}.
Arguments step_paths {st st'}.
Arguments step_vis {st st'}.
Arguments step_selected {st st'}.
Arguments step_new {st st'}.

Lemma pkg_done_mono md p st st' : step st st' -> pkg_done md p st -> pkg_done md p st'.
Proof.
  intros H [Ht Hd]. split; [exact (incl_tran Ht (step_paths H))|].
  intros d Hin. exact (dep_keyed_mono md d _ _ (step_vis H) (Hd d Hin)).
Qed.

Lemma finished_mono m st st' : step st st' -> finished m st -> finished m st'.
Proof. intros H Hf md p Hm Hp. exact (pkg_done_mono md p _ _ H (Hf md p Hm Hp)). Qed.

Lemma finished_edge m st n mp : finished m st -> Edge w m n mp -> In (vkey n mp) (snd st).
Proof.
  intros Hf (md & p & d & dir & Hm & Hp & Hd & <- & Hdir & -> & Hex & Hnm).
  exact (proj2 (Hf md p Hm Hp) d Hd dir Hdir Hex Hnm).
Qed.

Lemma step_refl st : step st st.
Proof. constructor; auto using incl_refl. Qed.

Lemma step_trans a b c : step a b -> step b c -> step a c.
Proof.
  intros H1 H2. constructor.
  - exact (incl_tran (step_paths H1) (step_paths H2)).
  - exact (incl_tran (step_vis H1) (step_vis H2)).
  - intros Hs. exact (step_selected H2 (step_selected H1 Hs)).
  - intros k Hk. destruct (step_new H2 k Hk) as [Hb|Hnew]; [|right; exact Hnew].
    destruct (step_new H1 k Hb) as [Ha|(x & n & mp & Hr & He & Hkk & Hf)]; [left; exact Ha|].
    right. exists x, n, mp. exact (conj Hr (conj He (conj Hkk (finished_mono _ _ _ H2 Hf)))).
Qed.

(* the call for an edge: the key is inserted before the call, and its end is finished after it *)
Lemma step_insert st st' c n mp :
  step (fst st, nset_insert (vkey n mp) (snd st)) st' -> Reach w root c -> Edge w c n mp ->
  finished (Some mp) st' -> step st st'.
Proof.
  intros H Hr He Hf. constructor.
  - exact (step_paths H).
  - intros x Hx. apply (step_vis H). apply nset_insert_In. right. exact Hx.
  - exact (step_selected H).
  - intros x Hx. destruct (step_new H x Hx) as [Hx'|Hx']; [|right; exact Hx'].
    apply nset_insert_In in Hx'. destruct Hx' as [<-|Hx']; [|left; exact Hx'].
    right. exists c, n, mp. auto.
Qed.

Definition recf_ok (recf : path -> tset * nset -> res (tset * nset)) : Prop :=
  forall mp st st', Reach w root (Some mp) -> recf mp st = Ok st' -> step st st' /\ finished (Some mp) st'.

Section Call.
Variables (recf : path -> tset * nset -> res (tset * nset)) (m : option path) (md : metadata).
Hypotheses (Hrec : recf_ok recf) (Hr : Reach w root m) (Hm : w_meta w m = Some md).

Lemma step_add_targets p st : In p (packages md) -> step st (add_targets w (p_targets p) (fst st), snd st).
Proof.
  intros Hp. constructor; cbn [fst snd]; auto using incl_refl.
  - intros k Hk. apply add_targets_paths. right. exact Hk.
  - intros [Hs Hsel]. split; [apply add_targets_sorted; exact Hs|].
    intros t Ht. destruct (add_targets_from _ _ _ _ Ht) as [(st0 & Hst0 & ->)|H]; [|exact (Hsel t H)].
    exists p, st0. split; [exists m, md; auto|auto].
Qed.

Lemma dep_body_step p d st st' :
  In p (packages md) -> In d (p_deps p) -> dep_body recf md d st = Ok st' ->
  step st st' /\ dep_keyed md d (snd st').
Proof.
  intros Hp Hd. unfold dep_body. destruct (follow md (snd st) d) as [mp|] eqn:Ef; intros Hrun.
  - destruct (follow_Some m md p d _ mp Hm Hp Hd Ef) as (Hedge & _ & Hkeyed).
    destruct (Hrec _ _ _ (Reach_step _ _ _ _ _ Hr Hedge) Hrun) as [H1 Hfin].
    split; [exact (step_insert _ _ _ _ _ H1 Hr Hedge Hfin)|].
    apply Hkeyed, (step_vis H1), nset_insert_In. left. reflexivity.
  - injection Hrun as <-. split; [apply step_refl|exact (follow_None _ _ _ Ef)].
Qed.

Lemma pkg_body_step p st st' :
  In p (packages md) -> pkg_body recf md p st = Ok st' -> step st st' /\ pkg_done md p st'.
Proof.
  intros Hp Hrun.
  destruct (res_fold_ok _ step (fun d st0 => dep_keyed md d (snd st0)) (p_deps p) step_refl step_trans
              (fun d a b H => dep_keyed_mono md d _ _ (step_vis H))
              (fun d a b => dep_body_step p d a b Hp) _ _ Hrun) as [H1 Hk].
  split; [exact (step_trans _ _ _ (step_add_targets p st Hp) H1)|]. split; [|exact Hk].
  intros k Hk'. apply (step_paths H1), add_targets_paths. left. exact Hk'.
Qed.
End Call.

Lemma rec_gen_step : forall fuel m st st',
  Reach w root m -> rec_gen w vkey fuel m st = Ok st' -> step st st' /\ finished m st'.
Proof.
  induction fuel as [|f IH]; intros m st st' Hr Hrun; [discriminate|].
  rewrite rec_gen_S_eq in Hrun. destruct (w_meta w m) as [md|] eqn:Hm; [|discriminate].
  destruct (res_fold_ok _ step (pkg_done md) (packages md) step_refl step_trans (pkg_done_mono md)
              (pkg_body_step _ m md (fun mp => IH (Some mp)) Hr Hm) _ _ Hrun) as [H Hk].
  split; [exact H|]. intros md' p Hm' Hp. rewrite Hm in Hm'. injection Hm' as <-. exact (Hk p Hp).
Qed.

Lemma rec_gen_sound fuel s v :
  rec_gen w vkey fuel root ([], []) = Ok (s, v) -> selected_set s.
Proof.
  intros Hrun. destruct (rec_gen_step fuel _ _ _ (Reach_root w root) Hrun) as [H _].
  apply (step_selected H). split; [apply tsorted_nil|intros t []].
Qed.

Definition key_inj : Prop :=
  forall m1 n1 mp1 m2 n2 mp2,
    Reach w root m1 -> Edge w m1 n1 mp1 -> Reach w root m2 -> Edge w m2 n2 mp2 ->
    vkey n1 mp1 = vkey n2 mp2 -> mp1 = mp2.

(* a reachable manifest is the end of an edge whose key was visited; with injective keys the edge whose
   end was finished for that key is this one *)
Lemma rec_gen_complete fuel s v :
  key_inj -> rec_gen w vkey fuel root ([], []) = Ok (s, v) ->
  forall p st, all_selected w root p -> In st (p_targets p) -> In (w_canon w (st_src st)) (tpaths s).
Proof.
  intros Hinj Hrun. destruct (rec_gen_step fuel _ _ _ (Reach_root w root) Hrun) as [H Hroot].
  assert (Hall : forall m, Reach w root m -> finished m (s, v)).
  { intros m Hr. induction Hr as [|m n mp Hr IHr He]; [exact Hroot|].
    destruct (step_new H _ (finished_edge m _ n mp IHr He)) as [[]|(c & n' & mp' & Hr' & He' & Hkey & Hfin)].
    rewrite (Hinj m n mp c n' mp' Hr He Hr' He' Hkey). exact Hfin. }
  intros p st (m & md & Hr & Hm & Hp) Hst.
  apply (proj1 (Hall m Hr md p Hm Hp)), (in_map (fun st1 => w_canon w (st_src st1))), Hst.
Qed.

(* termination.  R covers the keys of the edges not yet visited; every call of the recursion takes one key
   out of it first, so the calls nest no deeper than R is long *)
Definition covers (R : list N) (v : nset) : Prop :=
  forall m n mp, Reach w root m -> Edge w m n mp -> ~ In (vkey n mp) v -> In (vkey n mp) R.

Lemma covers_step R st st' : step st st' -> covers R (snd st) -> covers R (snd st').
Proof. intros Hs H m n mp Hr He Hn. apply (H m n mp Hr He). intros Hin. exact (Hn (step_vis Hs _ Hin)). Qed.

Lemma covers_insert R v k : covers R v -> covers (remove N.eq_dec k R) (nset_insert k v).
Proof.
  intros H m n mp Hr He Hn. rewrite nset_insert_In in Hn. apply in_in_remove.
  - intros E. apply Hn. left. symmetry. exact E.
  - apply (H m n mp Hr He). intros Hin. apply Hn. right. exact Hin.
Qed.

Lemma rec_gen_fuel : forall f m st R,
  Reach w root m -> covers R (snd st) -> (List.length R < f)%nat -> rec_gen w vkey f m st <> Err EFuel.
Proof.
  induction f as [|f IH]; intros m st R Hr Hcov Hlen; [lia|]. rewrite rec_gen_S_eq.
  destruct (w_meta w m) as [md|] eqn:Hm; [|discriminate].
  pose proof (fun mp => rec_gen_step f (Some mp)) as Hrec.
  (* both loops keep covers R, since visited only grows *)
  apply (res_fold_no_err _ EFuel (fun st0 => covers R (snd st0))); [|exact Hcov].
  intros p st1 Hp Hc1. split.
  - apply (res_fold_no_err _ EFuel (fun st0 => covers R (snd st0))); [|exact Hc1].
    intros d st2 Hd Hc2. split.
    + unfold dep_body. destruct (follow md (snd st2) d) as [mp|] eqn:Ef; [|discriminate].
      destruct (follow_Some m md p d _ mp Hm Hp Hd Ef) as (Hedge & Hnew & _).
      apply (IH (Some mp) _ (remove N.eq_dec (vkey (d_name d) mp) R) (Reach_step _ _ _ _ _ Hr Hedge)).
      * exact (covers_insert _ _ _ Hc2).
      * pose proof (remove_length_lt N.eq_dec R _ (Hc2 _ _ _ Hr Hedge Hnew)). lia.
    + intros st' Hrun. exact (covers_step R _ _ (proj1 (dep_body_step _ m md Hrec Hr Hm p d _ _ Hp Hd Hrun)) Hc2).
  - intros st' Hrun. exact (covers_step R _ _ (proj1 (pkg_body_step _ m md Hrec Hr Hm p _ _ Hp Hrun)) Hc1).
Qed.

Lemma rec_gen_fuel_enough (U : list N) fuel :
  (forall m n mp, Reach w root m -> Edge w m n mp -> In (vkey n mp) U) ->
  (List.length U < fuel)%nat -> rec_gen w vkey fuel root ([], []) <> Err EFuel.
Proof.
  intros HU H. apply (rec_gen_fuel fuel root _ U (Reach_root w root)); [|exact H].
  intros m n mp Hr He _. exact (HU m n mp Hr He).
Qed.
End AllRec.

Section Top.
Variable w : world.

Lemma targets_spec_root_lemma fuel marg s :
  get_targets w fuel SRoot marg = Ok s ->
  exists md, w_meta w marg = Some md /\ selects w (root_selected w marg md) s /\
             s = add_targets w (flat_map p_targets (root_packages w marg md)) [].
Proof.
  unfold get_targets. rewrite get_targets_gen_eq, root_only_eq. intros H. apply nonempty_ok in H.
  destruct (w_meta w marg) as [md|]; [|discriminate]. injection H as <-.
  exists md. split; [reflexivity|]. split; [|reflexivity].
  apply selects_of_list. intros p. symmetry. apply root_packages_iff.
Qed.

Lemma targets_spec_some_lemma fuel hitlist marg s :
  get_targets w fuel (SSome hitlist) marg = Ok s ->
  exists md, w_meta w marg = Some md /\ selects w (some_selected hitlist md) s /\
             (forall n, In n hitlist -> exists p, In p (packages md) /\ p_name p = n) /\
             s = add_targets w (flat_map p_targets
                   (hit_list (packages md) (fold_left (fun h n => nset_insert n h) hitlist []))) [].
Proof.
  unfold get_targets. rewrite get_targets_gen_eq, with_hitlist_eq. intros H. apply nonempty_ok in H.
  destruct (w_meta w marg) as [md|]; [|discriminate]. cbv zeta in H.
  pose proof (remaining_hitlist hitlist (packages md)) as Hrem.
  destruct (remaining (packages md) _); [|discriminate]. injection H as <-.
  exists md. split; [reflexivity|]. split; [|split; [|reflexivity]].
  - apply selects_of_list. intros p.
    rewrite (hit_list_spec (packages md) _ p (nset_of_list_sorted hitlist)), nset_of_list_In. reflexivity.
  - intros n Hn. destruct (Exists_dec (fun p => p_name p = n) (packages md)) as [Hex|Hall];
      [intros p; apply N.eq_dec|apply Exists_exists in Hex; exact Hex|].
    destruct (proj2 (Hrem n)). split; [exact Hn|]. intros p Hp E. apply Hall, Exists_exists. exists p. auto.
Qed.

Lemma unknown_package_before_format_lemma
      (fuel : nat) (v : verbosity) (a : list text) (hitlist : list pkgname) (marg : option path)
      (md : metadata) (n : pkgname) :
  w_meta w marg = Some md -> In n hitlist -> (forall p, In p (packages md) -> p_name p <> n) ->
  exists n', get_targets w fuel (SSome hitlist) marg = Err (ENotMember n') /\
             In n' hitlist /\ (forall p, In p (packages md) -> p_name p <> n') /\ n' <= n /\
             format_crate w fuel v (SSome hitlist) a marg = (Err (ENotMember n'), []).
Proof.
  intros Hm Hn Hun. unfold format_crate, get_targets. rewrite get_targets_gen_eq, with_hitlist_eq, Hm. cbv zeta.
  pose proof (remaining_hitlist hitlist (packages md)) as Hrem.
  pose proof (proj1 (remaining_spec (packages md) _ (nset_of_list_sorted hitlist))) as Hsorted.
  pose proof (proj2 (Hrem n) (conj Hn Hun)) as Hnr.
  destruct (remaining (packages md) _) as [|n' r]; [destruct Hnr|].
  exists n'. split; [reflexivity|]. destruct (proj1 (Hrem n') (or_introl eq_refl)) as [H1 H2].
  split; [exact H1|]. split; [exact H2|]. split; [|reflexivity].
  (* the error names the head of a sorted list that contains n *)
  apply SS_cons_iff in Hsorted as [_ Hall].
  destruct Hnr as [->|Hnr]; [lia|]. specialize (Hall n Hnr). cbv beta in Hall. lia.
Qed.

Lemma targets_all_lemma vkey fuel marg s :
  get_targets_gen w (rec_gen w vkey) fuel SAll marg = Ok s ->
  selected_set w marg s /\ (key_inj w marg vkey -> selects w (all_selected w marg) s).
Proof.
  rewrite get_targets_gen_eq. intros H. apply nonempty_ok, targets_of_ok in H. destruct H as (v & H).
  pose proof (rec_gen_sound w marg vkey fuel s v H) as Hsel. split; [exact Hsel|].
  intros Hinj. split; [exact (proj2 Hsel)|exact (rec_gen_complete w marg vkey fuel s v Hinj H)].
Qed.

Lemma key_inj_name marg : distinct_dep_names w marg -> key_inj w marg vkey_name.
Proof.
  intros Hd m1 n1 mp1 m2 n2 mp2 Hr1 He1 Hr2 He2 Hk. unfold vkey_name in Hk. subst n2.
  exact (Hd m1 m2 n1 mp1 mp2 Hr1 He1 Hr2 He2).
Qed.
Lemma key_inj_path marg : key_inj w marg vkey_path.
Proof. intros m1 n1 mp1 m2 n2 mp2 _ _ _ _ Hk. exact Hk. Qed.

Lemma targets_spec_all_lemma fuel marg s :
  distinct_dep_names w marg -> get_targets w fuel SAll marg = Ok s -> selects w (all_selected w marg) s.
Proof.
  intros Hd H. apply (proj2 (targets_all_lemma vkey_all fuel marg s H)).
  destruct vkey_all_cases as [->| ->]; [apply key_inj_name; exact Hd|apply key_inj_path].
Qed.

Lemma targets_spec_all_partial_lemma fuel marg s :
  get_targets w fuel SAll marg = Ok s -> forall t, In t s -> from_selected w marg t.
Proof. intros H. exact (proj2 (proj1 (targets_all_lemma vkey_all fuel marg s H))). Qed.

Lemma fixed_targets_spec_all_lemma fuel marg s :
  get_targets_fixed w fuel SAll marg = Ok s -> selects w (all_selected w marg) s.
Proof. intros H. exact (proj2 (targets_all_lemma vkey_path fuel marg s H) (key_inj_path marg)). Qed.

Lemma each_path_once_lemma fuel st marg s :
  get_targets w fuel st marg = Ok s -> NoDup (map t_path s) /\ StronglySorted N.lt (map t_path s).
Proof.
  intros H. assert (Hs : tsorted s).
  { destruct st as [|hl|].
    - exact (proj1 (proj1 (targets_all_lemma vkey_all fuel marg s H))).
    - destruct (targets_spec_some_lemma _ _ _ _ H) as (md & _ & _ & _ & ->). apply add_targets_sorted, tsorted_nil.
    - destruct (targets_spec_root_lemma _ _ _ H) as (md & _ & _ & ->). apply add_targets_sorted, tsorted_nil. }
  apply ksorted_keys in Hs. split; [apply sorted_lt_NoDup; exact Hs|exact Hs].
Qed.

Lemma fuel_error fuel st marg :
  get_targets w fuel st marg = Err EFuel -> get_targets_all w fuel marg ([], []) = Err EFuel.
Proof.
  unfold get_targets. rewrite get_targets_gen_eq. intros H. apply nonempty_err in H.
  destruct H as [H|H]; [discriminate|]. destruct st as [|hl|].
  - apply targets_of_err. exact H.
  - rewrite with_hitlist_eq in H. destruct (w_meta w marg) as [md|]; [|discriminate].
    cbv zeta in H. destruct (remaining _ _); discriminate.
  - rewrite root_only_eq in H. destruct (w_meta w marg); discriminate.
Qed.

Lemma fuel_enough_lemma (U : list N) fuel st marg :
  (forall m n mp, Reach w marg m -> Edge w m n mp -> In (vkey_all n mp) U) ->
  (List.length U < fuel)%nat -> get_targets w fuel st marg <> Err EFuel.
Proof. intros HU Hlen H. exact (rec_gen_fuel_enough w marg vkey_all U fuel HU Hlen (fuel_error _ _ _ H)). Qed.

Lemma fuel_irrelevant_lemma fuel k st marg r :
  get_targets w fuel st marg = r -> r <> Err EFuel -> get_targets w (k + fuel) st marg = r.
Proof.
  intros <- Hne. destruct st as [|hl|]; [|reflexivity|reflexivity].
  unfold get_targets, get_targets_all in *. rewrite !get_targets_gen_eq in *.
  rewrite rec_gen_more_fuel; [reflexivity|]. intros E. rewrite E in Hne. exact (Hne eq_refl).
Qed.

Lemma metadata_failure_lemma fuel st marg :
  w_meta w marg = None -> (0 < fuel)%nat -> get_targets w fuel st marg = Err EMetadata.
Proof.
  intros Hm Hf. unfold get_targets. rewrite get_targets_gen_eq. destruct st as [|hl|].
  - destruct fuel as [|f]; [lia|]. unfold get_targets_all. rewrite rec_gen_S_eq, Hm. reflexivity.
  - rewrite with_hitlist_eq, Hm. reflexivity.
  - rewrite root_only_eq, Hm. reflexivity.
Qed.
End Top.

Definition group (e : edition) (ts : tset) : list path :=
  map t_path (filter (fun t => t_edition t =? e) ts).
Definition editions (ts : tset) : nset :=
  fold_left (fun h n => nset_insert n h) (map t_edition ts) [].

Lemma group_snoc e ts t :
  group e (ts ++ [t]) = group e ts ++ (if t_edition t =? e then [t_path t] else []).
Proof. unfold group. rewrite filter_app, map_app. cbn [filter]. destruct (t_edition t =? e); reflexivity. Qed.

Lemma editions_In ts e : In e (editions ts) <-> exists t, In t ts /\ t_edition t = e.
Proof.
  unfold editions. rewrite nset_of_list_In, in_map_iff.
  split; intros (t & H1 & H2); exists t; split; assumption.
Qed.

Lemma editions_snoc ts t : editions (ts ++ [t]) = nset_insert (t_edition t) (editions ts).
Proof. unfold editions. rewrite map_app, fold_left_app. reflexivity. Qed.

(* the BTreeMap as its sorted keys es and a function g from keys to values: the form by_edition_eq gives it *)
Lemma bm_push_map (e0 : edition) (p : path) (g g' : edition -> list path) :
  g' e0 = g e0 ++ [p] -> (forall e, e <> e0 -> g' e = g e) ->
  forall es, nsorted es -> (~ In e0 es -> g e0 = []) ->
  bm_push e0 p (map (fun e => (e, g e)) es) = map (fun e => (e, g' e)) (nset_insert e0 es).
Proof.
  intros Hg0 Hg'.
  assert (Hext : forall es, ~ In e0 es -> map (fun e => (e, g e)) es = map (fun e => (e, g' e)) es).
  { intros es Hn. apply map_ext_in. intros a Ha. rewrite Hg'; [reflexivity|]. intros ->. exact (Hn Ha). }
  unfold nset_insert. induction es as [|u es IH]; intros Hs Hg; cbn [map bm_push kinsert].
  - rewrite Hg0, (Hg (fun H => H)). reflexivity.
  - apply SS_cons_iff in Hs as [Hs Hall].
    destruct (N.ltb_spec e0 u) as [Hlt|Hge]; [|destruct (N.eqb_spec e0 u) as [<-|Hne]]; cbn [map].
    + assert (Hn : ~ In e0 (u :: es)) by (intros [H|H]; [lia|specialize (Hall _ H); lia]).
      rewrite Hg0, (Hg Hn). f_equal. exact (Hext (u :: es) Hn).
    + rewrite Hg0, Hext; [reflexivity|]. intros H. specialize (Hall _ H). lia.
    + rewrite Hg', IH; [reflexivity|exact Hs| |congruence]. intros Hn. apply Hg. intros [H|H]; [congruence|exact (Hn H)].
Qed.

Lemma by_edition_snoc ts t : by_edition (ts ++ [t]) = bm_push (t_edition t) (t_path t) (by_edition ts).
Proof. apply fold_left_app. Qed.

Lemma by_edition_eq : forall ts, by_edition ts = map (fun e => (e, group e ts)) (editions ts).
Proof.
  induction ts as [|t ts IH] using rev_ind; [reflexivity|].
  rewrite by_edition_snoc, IH, editions_snoc.
  apply bm_push_map; [| |apply nset_of_list_sorted|].
  - rewrite group_snoc, N.eqb_refl. reflexivity.
  - intros e He. rewrite group_snoc. destruct (N.eqb_spec (t_edition t) e); [congruence|apply app_nil_r].
  - intros Hn. unfold group. destruct (filter _ ts) as [|t' l] eqn:Ef; [reflexivity|].
    assert (Ht' : In t' (filter (fun t0 => t_edition t0 =? t_edition t) ts)) by (rewrite Ef; left; reflexivity).
    apply filter_In in Ht'. destruct Hn. apply editions_In. exists t'. rewrite <- N.eqb_eq. exact Ht'.
Qed.

Lemma by_edition_spec_lemma ts :
  StronglySorted N.lt (map fst (by_edition ts)) /\
  (forall e, In e (map fst (by_edition ts)) <-> exists t, In t ts /\ t_edition t = e) /\
  (forall e fs, In (e, fs) (by_edition ts) -> fs = group e ts).
Proof.
  rewrite by_edition_eq, map_map, map_id. split; [apply nset_of_list_sorted|]. split; [apply editions_In|].
  intros e fs H. apply in_map_iff in H. destruct H as (e' & [= <- <-] & _). reflexivity.
Qed.

Lemma bm_push_perm e p m : Permutation (concat (map snd (bm_push e p m))) (p :: concat (map snd m)).
Proof.
  induction m as [|[e' fs] m IH]; cbn [bm_push map snd concat]; [reflexivity|].
  destruct (e <? e'); [reflexivity|]. destruct (e =? e'); cbn [map snd concat].
  - rewrite <- app_assoc. symmetry. apply Permutation_middle.
  - rewrite IH. symmetry. apply Permutation_middle.
Qed.

Lemma by_edition_perm : forall ts, Permutation (concat (map snd (by_edition ts))) (map t_path ts).
Proof.
  induction ts as [|t ts IH] using rev_ind; [reflexivity|].
  rewrite by_edition_snoc, bm_push_perm, IH, map_app. apply Permutation_cons_append.
Qed.

Lemma each_file_once_in_invocations_lemma ts :
  NoDup (map t_path ts) ->
  NoDup (concat (map snd (by_edition ts))) /\
  (forall p, In p (concat (map snd (by_edition ts))) <-> In p (map t_path ts)).
Proof.
  intros Hnd. pose proof (by_edition_perm ts) as H. split.
  - exact (Permutation_NoDup (Permutation_sym H) Hnd).
  - intros p. split; apply Permutation_in; [exact H|symmetry; exact H].
Qed.

Section Run.
Variable w : world.

Lemma spawn_loop_spec v args : forall groups,
  spawn_loop w v groups args
  = (waited (map (w_child w) (map (fun g => mk_invocation v (fst g) (snd g) args) groups)),
     upto_spawn_failure w (map (fun g => mk_invocation v (fst g) (snd g) args) groups)).
Proof.
  induction groups as [|[e files] gs IH]; cbn [spawn_loop map waited upto_spawn_failure fst snd]; [reflexivity|].
  destruct (w_child w (mk_invocation v e files args)); [rewrite IH|rewrite IH|]; reflexivity.
Qed.

Lemma upto_all pl : (forall i, In i pl -> w_child w i <> SpawnFailed) -> upto_spawn_failure w pl = pl.
Proof.
  induction pl as [|i pl IH]; intros H; cbn [upto_spawn_failure]; [reflexivity|].
  rewrite IH by (intros j Hj; exact (H j (or_intror Hj))).
  pose proof (H i (or_introl eq_refl)). destruct (w_child w i); [reflexivity|reflexivity|contradiction].
Qed.

Lemma upto_incl pl i : In i (upto_spawn_failure w pl) -> In i pl.
Proof.
  induction pl as [|j pl IH]; cbn [upto_spawn_failure In]; [auto|].
  destruct (w_child w j); cbn [In]; intros [H|H]; auto; destruct H.
Qed.

Lemma upto_failure pl :
  (exists i, In i pl /\ w_child w i <> Exited 0) <->
  (exists i, In i (upto_spawn_failure w pl) /\ w_child w i <> Exited 0).
Proof.
  split; [|intros (i & Hi & Hne); exists i; split; [apply upto_incl; exact Hi|exact Hne]].
  induction pl as [|j pl IH]; intros (i & Hi & Hne); [destruct Hi|]. cbn [upto_spawn_failure].
  assert (Hj : w_child w j <> Exited 0 -> exists i', In i' (j :: upto_spawn_failure w pl) /\ w_child w i' <> Exited 0)
    by (intros H; exists j; split; [left; reflexivity|exact H]).
  destruct (w_child w j) eqn:E; [|apply Hj; discriminate|exists j; split; [left; reflexivity|congruence]].
  destruct Hi as [<-|Hi]; [apply Hj; congruence|].
  destruct (IH (ex_intro _ i (conj Hi Hne))) as (i' & Hi' & Hne'). exists i'. split; [right; exact Hi'|exact Hne'].
Qed.

Lemma invocations_spec_lemma (s : tset) (args : list text) (v : verbosity) :
  handle_command_status (fst (run_rustfmt w s args v)) = exit_code_of (map (w_child w) (planned v s args)) /\
  snd (run_rustfmt w s args v) = upto_spawn_failure w (planned v s args) /\
  (forall i, In i (planned v s args) ->
     exists e files, In (e, files) (by_edition s) /\ i = mk_invocation v e files args) /\
  ((forall i, In i (planned v s args) -> w_child w i <> SpawnFailed) ->
   snd (run_rustfmt w s args v) = planned v s args).
Proof.
  unfold run_rustfmt, exit_code_of, exit_code_gen. rewrite spawn_loop_spec. fold (planned v s args). cbn [fst snd].
  split; [destruct (waited _); reflexivity|]. split; [reflexivity|]. split; [|apply upto_all].
  intros i H. apply in_map_iff in H. destruct H as ([e files] & <- & Hin). exists e, files. split; [exact Hin|reflexivity].
Qed.
End Run.

Lemma waited_cases ss :
  (waited ss = None /\ In SpawnFailed ss) \/ (waited ss = Some ss /\ ~ In SpawnFailed ss).
Proof.
  induction ss as [|s ss IH]; [right; split; [reflexivity|intros []]|].
  cbn [waited]. destruct IH as [[-> Hin]|[-> Hn]].
  - left. split; [destruct s; reflexivity|right; exact Hin].
  - (* the tail is waited for: the head decides *)
    destruct s as [c| |]; [right|right|left]; (split; [reflexivity|]).
    + intros [H|H]; [discriminate|exact (Hn H)].
    + intros [H|H]; [discriminate|exact (Hn H)].
    + left. reflexivity.
Qed.

Lemma fold_statuses_nonzero (fc : status -> option Z) (l : list status) :
  (forall s c, fc s = Some c -> c <> 0%Z) -> fc (Exited 0) = None ->
  (forall s, In s l -> fc s = None -> s = Exited 0) ->
  (fold_statuses fc l <> 0%Z <-> exists s, In s l /\ s <> Exited 0).
Proof.
  intros Hnz H0. unfold fold_statuses. rewrite <- Exists_exists.
  induction l as [|s l IH]; intros Hnone; cbn [filter_map].
  - rewrite Exists_nil. unfold SUCCESS. split; [intros H; congruence|intros []].
  - rewrite Exists_cons. destruct (fc s) as [c|] eqn:E.
    + split; [intros _; left; congruence|intros _; exact (Hnz s c E)].
    + pose proof (Hnone s (or_introl eq_refl) E) as ->.
      rewrite (IH (fun s' Hs' => Hnone s' (or_intror Hs'))).
      split; [intros H; right; exact H|intros [H|H]; [destruct (H eq_refl)|exact H]].
Qed.

Lemma exit_gen_iff (fc : status -> option Z) (ss : list status) :
  (forall s c, fc s = Some c -> c <> 0%Z) -> fc (Exited 0) = None ->
  (forall s, In s ss -> s <> SpawnFailed -> fc s = None -> s = Exited 0) ->
  (exit_code_gen fc ss <> 0%Z <-> exists s, In s ss /\ s <> Exited 0).
Proof.
  intros Hnz H0 Hnone. unfold exit_code_gen.
  destruct (waited_cases ss) as [[-> Hin]|[-> Hn]].
  - unfold FAILURE. split; [|intros _; discriminate].
    intros _. exists SpawnFailed. split; [exact Hin|discriminate].
  - apply fold_statuses_nonzero; [exact Hnz|exact H0|].
    intros s Hs. apply Hnone; [exact Hs|]. intros ->. exact (Hn Hs).
Qed.

Lemma failure_code_spec s :
  match failure_code s with
  | Some c => c <> 0%Z
  | None => s = Exited 0 \/ s = Signaled \/ s = SpawnFailed
  end.
Proof.
  unfold failure_code. destruct s as [c| |]; cbn [status_success status_code]; auto.
  destruct (Z.eqb_spec c 0); [subst; auto|assumption].
Qed.
Lemma failure_code_fixed_spec s :
  match failure_code_fixed s with
  | Some c => c <> 0%Z
  | None => s = Exited 0
  end.
Proof.
  unfold failure_code_fixed. destruct s as [c| |]; cbn [status_success status_code]; try discriminate.
  destruct (Z.eqb_spec c 0); [subst; reflexivity|assumption].
Qed.

Lemma fixed_exit_iff_lemma ss : exit_code_fixed ss <> 0%Z <-> exists s, In s ss /\ s <> Exited 0.
Proof.
  apply exit_gen_iff; [| reflexivity |]; intros s; pose proof (failure_code_fixed_spec s) as H.
  - intros c E. rewrite E in H. exact H.
  - intros _ _ E. rewrite E in H. exact H.
Qed.

Lemma exit_code_iff_nosig ss : ~ In Signaled ss -> (exit_code ss <> 0%Z <-> exists s, In s ss /\ s <> Exited 0).
Proof.
  intros Hns. apply exit_gen_iff; [| reflexivity |]; intros s; pose proof (failure_code_spec s) as H.
  - intros c E. rewrite E in H. exact H.
  - intros Hs Hnsf E. rewrite E in H. destruct H as [H|[->|H]]; [exact H|contradiction|contradiction].
Qed.

Lemma exit_iff_partial_lemma ss :
  ~ In Signaled ss -> (exit_code_of ss <> 0%Z <-> exists s, In s ss /\ s <> Exited 0).
Proof.
  intros Hns. unfold exit_code_of. destruct failure_code_of_cases as [-> | ->].
  - apply exit_code_iff_nosig. exact Hns.
  - apply fixed_exit_iff_lemma.
Qed.

Lemma exit_iff_refuted_lemma :
  exists ss, ~ (exit_code ss <> 0%Z <-> exists s, In s ss /\ s <> Exited 0).
Proof.
  exists [Signaled]. intros [_ H]. apply H; [|reflexivity].
  exists Signaled. split; [left; reflexivity|discriminate].
Qed.

Lemma check_flag_lemma (a : list text) :
  translate_check false a = a /\
  (In (txt "--check") a -> translate_check true a = a) /\
  (~ In (txt "--check") a -> translate_check true a = a ++ [txt "--check"]).
Proof.
  unfold translate_check. split; [reflexivity|]. destruct (existsb _ a) eqn:E.
  - apply existsb_text_In in E. split; [reflexivity|contradiction].
  - split; [|reflexivity]. intros H. apply existsb_text_In in H. congruence.
Qed.

Lemma list_files_existsb a :
  existsb (fun x => eqb_text x (txt "-l") || eqb_text x (txt "--files-with-diff")) a = true <-> has_list_files a.
Proof. rewrite existsb_orb, orb_true_iff, !existsb_text_In. reflexivity. Qed.

Lemma message_format_short_lemma a :
  (has_list_files a -> convert_message_format (txt "short") a = Some a) /\
  (~ has_list_files a -> convert_message_format (txt "short") a = Some (a ++ [txt "-l"])).
Proof.
  unfold convert_message_format. rewrite eqb_text_refl.
  destruct (existsb _ a) eqn:E.
  - apply list_files_existsb in E. split; [reflexivity|contradiction].
  - split; [|reflexivity]. intros H. apply list_files_existsb in H. congruence.
Qed.

Lemma message_format_json_lemma a :
  (has_emit a \/ In (txt "--check") a -> convert_message_format (txt "json") a = None) /\
  (~ has_emit a -> ~ In (txt "--check") a ->
   convert_message_format (txt "json") a = Some (a ++ [txt "--emit"; txt "json"])).
Proof.
  unfold convert_message_format.
  assert (E1 : eqb_text (txt "json") (txt "short") = false) by (vm_compute; reflexivity).
  rewrite E1, eqb_text_refl. cbv iota. unfold has_emit.
  (* the values of the remaining literals play no part *)
  generalize (txt "--emit"), (txt "--check"), (txt "json"). intros emit check json.
  destruct (existsb (starts_with emit) a) eqn:Ee.
  - apply existsb_exists in Ee. split; [reflexivity|contradiction].
  - destruct (existsb (fun x => eqb_text x check) a) eqn:Ec.
    + apply existsb_text_In in Ec. split; [reflexivity|contradiction].
    + split; [|reflexivity]. intros [He|Hc]; [apply existsb_exists in He|apply existsb_text_In in Hc]; congruence.
Qed.

Lemma message_format_human_lemma a : convert_message_format (txt "human") a = Some a.
Proof.
  unfold convert_message_format.
  assert (E1 : eqb_text (txt "human") (txt "short") = false) by (vm_compute; reflexivity).
  assert (E2 : eqb_text (txt "human") (txt "json") = false) by (vm_compute; reflexivity).
  rewrite E1, E2, eqb_text_refl. reflexivity.
Qed.

Lemma message_format_other_lemma mf a :
  mf <> txt "short" -> mf <> txt "json" -> mf <> txt "human" -> convert_message_format mf a = None.
Proof.
  intros H1 H2 H3. unfold convert_message_format.
  rewrite (eqb_text_neq _ _ H1), (eqb_text_neq _ _ H2), (eqb_text_neq _ _ H3). reflexivity.
Qed.

Lemma app_nothing {A} (a : list A) (l : list A) : exists e, a = a ++ e /\ incl e l.
Proof. exists []. split; [symmetry; apply app_nil_r|apply incl_nil_l]. Qed.

Lemma translate_check_app c a : exists e, translate_check c a = a ++ e /\ incl e [txt "--check"].
Proof.
  unfold translate_check. destruct c; [destruct (existsb _ a)|]; [apply app_nothing| |apply app_nothing].
  exists [txt "--check"]. split; [reflexivity|apply incl_refl].
Qed.

Lemma convert_message_format_app mf a b :
  convert_message_format mf a = Some b -> exists e, b = a ++ e /\ incl e [txt "-l"; txt "--emit"; txt "json"].
Proof.
  unfold convert_message_format.
  (* the values of the literals play no part *)
  generalize (txt "short"), (txt "json"), (txt "human"), (txt "-l"), (txt "--emit"), (txt "--check"),
    (txt "--files-with-diff").
  intros short json human l emit check fwd. destruct (eqb_text mf short).
  - destruct (existsb _ a); intros [= <-]; [apply app_nothing|].
    exists [l]. split; [reflexivity|]. intros x [<-|[]]. left. reflexivity.
  - destruct (eqb_text mf json).
    + destruct (existsb _ a); [discriminate|]. destruct (existsb _ a); [discriminate|]. intros [= <-].
      exists [emit; json]. split; [reflexivity|apply incl_tl, incl_refl].
    + destruct (eqb_text mf human); [|discriminate]. intros [= <-]. apply app_nothing.
Qed.

Lemma passthrough_lemma (o : opts) (a : list text) :
  final_args o = Some a ->
  exists extra, a = o_rustfmt_options o ++ extra /\
    forall x, In x extra -> In x [txt "--check"; txt "-l"; txt "--emit"; txt "json"].
Proof.
  unfold final_args. destruct (translate_check_app (o_check o) (o_rustfmt_options o)) as (e1 & -> & He1).
  destruct (o_message_format o) as [mf|].
  - intros H. apply convert_message_format_app in H. destruct H as (e2 & -> & He2).
    exists (e1 ++ e2). split; [symmetry; apply app_assoc|].
    apply incl_app; [exact (incl_appl _ He1)|exact (incl_appr [_] He2)].
  - intros [= <-]. exists e1. split; [reflexivity|exact (incl_appl _ He1)].
Qed.

Section Exec.
Variable w : world.

Lemma target_error_before_format_lemma fuel v st a marg e :
  get_targets w fuel st marg = Err e -> format_crate w fuel v st a marg = (Err e, []).
Proof. intros H. unfold format_crate. rewrite H. reflexivity. Qed.

Lemma metadata_failure_before_format_lemma
      (fuel : nat) (v : verbosity) (st : strategy) (a : list text) (marg : option path) :
  w_meta w marg = None -> (0 < fuel)%nat ->
  format_crate w fuel v st a marg = (Err EMetadata, []).
Proof. intros Hm Hf. apply target_error_before_format_lemma, metadata_failure_lemma; assumption. Qed.

Lemma execute_eq fuel (o : opts) :
  info_request o = false ->
  execute w fuel o =
  match verbosity_of o, final_args o, manifest_arg w o with
  | Some v, Some a, Some marg =>
      (handle_command_status (fst (format_crate w fuel v (strategy_from_opts o) a marg)),
       snd (format_crate w fuel v (strategy_from_opts o) a marg))
  | _, _, _ => (FAILURE, [])
  end.
Proof.
  intros Hi. apply orb_false_iff in Hi. destruct Hi as [Hi1 Hi2].
  unfold execute, manifest_arg. fold (verbosity_of o) (final_args o). rewrite Hi1, Hi2.
  destruct (verbosity_of o) as [v|]; [|reflexivity]. destruct (final_args o) as [a|]; [|reflexivity].
  destruct (o_manifest_path o) as [sp|]; [destruct (ends_with _ sp); [|reflexivity]|];
    cbn [negb]; destruct (format_crate w fuel v _ a _); reflexivity.
Qed.

Lemma usage_error_before_format_lemma fuel (o : opts) :
  info_request o = false ->
  verbosity_of o = None \/ final_args o = None \/ manifest_arg w o = None ->
  execute w fuel o = (FAILURE, []).
Proof.
  intros Hi H. rewrite (execute_eq fuel o Hi). destruct H as [-> |[-> | ->]]; [reflexivity| |].
  - destruct (verbosity_of o); reflexivity.
  - destruct (verbosity_of o); [destruct (final_args o)|]; reflexivity.
Qed.

Lemma execute_spec_lemma fuel (o : opts) v a marg :
  info_request o = false -> verbosity_of o = Some v -> final_args o = Some a -> manifest_arg w o = Some marg ->
  match get_targets w fuel (strategy_from_opts o) marg with
  | Err _ => execute w fuel o = (FAILURE, [])
  | Ok s => execute w fuel o = (exit_code_of (map (w_child w) (planned v s a)),
                                upto_spawn_failure w (planned v s a))
  end.
Proof.
  intros Hi Hv Ha Hm. rewrite (execute_eq fuel o Hi), Hv, Ha, Hm. unfold format_crate.
  destruct (get_targets w fuel (strategy_from_opts o) marg) as [s|e]; [|reflexivity].
  destruct (invocations_spec_lemma w s a v) as (H1 & H2 & _). rewrite H1, H2. reflexivity.
Qed.

Lemma execute_exit_partial_lemma fuel (o : opts) v a marg s :
  info_request o = false -> verbosity_of o = Some v -> final_args o = Some a -> manifest_arg w o = Some marg ->
  get_targets w fuel (strategy_from_opts o) marg = Ok s ->
  (forall i, In i (planned v s a) -> w_child w i <> Signaled) ->
  (fst (execute w fuel o) <> 0%Z <-> exists i, In i (snd (execute w fuel o)) /\ w_child w i <> Exited 0).
Proof.
  intros Hi Hv Ha Hm Hs Hns. pose proof (execute_spec_lemma fuel o v a marg Hi Hv Ha Hm) as H.
  rewrite Hs in H. rewrite H. cbn [fst snd]. rewrite <- upto_failure, exit_iff_partial_lemma.
  - split.
    + intros (st & Hst & Hne). apply in_map_iff in Hst. destruct Hst as (i & <- & Hin). exists i. split; assumption.
    + intros (i & Hin & Hne). exists (w_child w i). split; [apply in_map; exact Hin|exact Hne].
  - intros Hin. apply in_map_iff in Hin. destruct Hin as (i & Hc & Hin). exact (Hns i Hin Hc).
Qed.
End Exec.

Fixpoint lookup_meta (tbl : list (option path * metadata)) (m : option path) : option metadata :=
  match tbl with
  | [] => None
  | (k, md) :: tbl' =>
      if (match k, m with
          | None, None => true
          | Some a, Some b => a =? b
          | _, _ => false
          end) then Some md else lookup_meta tbl' m
  end.

(* The scratch workspace used to validate the model against the real binary; Examples.v computes in it too.
   files: 1 ext/util/Cargo.toml  2 ext/util/src/lib.rs  3 ext2/util/Cargo.toml  4 ext2/util/src/lib.rs
          5 ws/Cargo.toml (virtual)  6 ws/a/Cargo.toml  8 ws/a/src/main.rs  9 ws/b/Cargo.toml  10 ws/b/src/main.rs
          11 ws/c/Cargo.toml  12 ws/c/src/lib.rs  13 ws/shared/lib.rs
          213 ws/a/../shared/lib.rs  313 ws/b/../shared/lib.rs  (both canonicalise to 13)
   directories: 100 + the identifier of their Cargo.toml.   names: a 1, b 2, c 3, util 5, zzz 6, util2 7, and
   9 for a dependency of b that has no path.   Every --manifest-path string stands for ws/Cargo.toml (w_path_of).
   a (2015) and b (2021) share the file 13; a depends on util at ext/util, b on a package called util at ext2/util *)
Definition x_pkg_a : pkg := MkPkg 1 6 [MkSrc 213 0 2015; MkSrc 8 1 2015] [MkDep 2 (Some 109); MkDep 5 (Some 101)].
Definition x_pkg_b (depname : pkgname) : pkg :=
  MkPkg 2 9 [MkSrc 313 0 2021; MkSrc 10 1 2021] [MkDep depname (Some 103); MkDep 9 None].
Definition x_pkg_c : pkg := MkPkg 3 11 [MkSrc 12 0 2018] [].
Definition x_pkg_u1 : pkg := MkPkg 5 1 [MkSrc 2 0 2018] [].
Definition x_pkg_u2 (name : pkgname) : pkg := MkPkg name 3 [MkSrc 4 0 2021] [].
Definition x_ws (depname : pkgname) : metadata := MkMeta 105 [x_pkg_a; x_pkg_b depname; x_pkg_c].
Definition x_tbl (depname : pkgname) : list (option path * metadata) :=
  [(None, x_ws depname); (Some 5, x_ws depname); (Some 6, x_ws depname); (Some 9, x_ws depname);
   (Some 11, x_ws depname); (Some 1, MkMeta 101 [x_pkg_u1]); (Some 3, MkMeta 103 [x_pkg_u2 depname])].
(* depname = 5: the second dependency is also called util; depname = 7: distinct names *)
Definition x_world (depname : pkgname) (cwd : path) (child : invocation -> status) : world :=
  MkWorld (lookup_meta (x_tbl depname))
          (fun p => if (p =? 213) || (p =? 313) then 13 else p)
          (fun p => existsb (N.eqb p) [1; 3; 5; 6; 9; 11])
          (fun d => d - 100)
          cwd
          (fun _ => 5)
          child.
Definition x_ok : invocation -> status := fun _ => Exited 0.

Lemma targets_spec_all_refuted_lemma :
  exists (w : world) (fuel : nat) (marg : option path) (s : tset) (p : pkg) (st : src_target),
    get_targets_gen w (get_targets_recursive w) fuel SAll marg = Ok s /\
    (forall k, get_targets_gen w (get_targets_recursive w) (k + fuel) SAll marg = Ok s) /\
    all_selected w marg p /\ In st (p_targets p) /\ ~ In (w_canon w (st_src st)) (tpaths s).
Proof.
  pose (w := x_world 5 105 x_ok).
  pose (s := [MkT 2 0 2018; MkT 8 1 2015; MkT 10 1 2021; MkT 12 0 2018; MkT 13 0 2015]).
  exists w, 5%nat, None, s, (x_pkg_u2 5), (MkSrc 4 0 2021).
  assert (H5 : get_targets_gen w (get_targets_recursive w) 5 SAll None = Ok s) by (vm_compute; reflexivity).
  split; [exact H5|]. split; [|split; [|split; [left; reflexivity|]]].
  - intros k. rewrite get_targets_gen_eq in *. unfold get_targets_recursive in *.
    rewrite rec_gen_more_fuel; [exact H5|]. intros E. rewrite E in H5. discriminate.
  - exists (Some 3), (MkMeta 103 [x_pkg_u2 5]). split; [|split; [reflexivity|left; reflexivity]].
    (* the edge that the recursion follows from b's first dependency *)
    apply (Reach_step w None None 5 3 (Reach_root _ _)).
    apply (follow_Some w vkey_path None (x_ws 5) (x_pkg_b 5) (MkDep 5 (Some 103)) [] 3);
      [reflexivity|right; left; reflexivity|left; reflexivity|reflexivity].
  - vm_compute. intros [H|[H|[H|[H|[H|[]]]]]]; discriminate.
Qed.

Definition x_opts_all_unknown : opts := MkOpts false false false [6] None None [] true false.

Lemma unknown_package_with_all_refuted_lemma :
  exists (w : world) (fuel : nat) (o : opts) (n : pkgname) (md : metadata),
    o_format_all o = true /\ In n (o_packages o) /\ manifest_arg w o = Some None /\
    w_meta w None = Some md /\ (forall p, In p (packages md) -> p_name p <> n) /\
    fst (execute w fuel o) = 0%Z /\ snd (execute w fuel o) <> [].
Proof.
  exists (x_world 5 105 x_ok), 5%nat, x_opts_all_unknown, 6, (x_ws 5).
  split; [reflexivity|]. split; [left; reflexivity|]. split; [reflexivity|]. split; [reflexivity|].
  split; [|split; [vm_compute; reflexivity|vm_compute; discriminate]].
  intros p Hp. cbn in Hp. destruct Hp as [<-|[<-|[<-|[]]]]; discriminate.
Qed.

(* the file shared by a (2015) and b (2021) is formatted once, with a's edition *)
Lemma edition_shared_file_refuted_lemma :
  exists (w : world) (fuel : nat) (marg : option path) (md : metadata) (s : tset) (p : pkg) (st : src_target),
    get_targets w fuel SRoot marg = Ok s /\ w_meta w marg = Some md /\
    root_selected w marg md p /\ In st (p_targets p) /\
    forall t, In t s -> t_path t = w_canon w (st_src st) -> t_edition t <> st_edition st.
Proof.
  exists (x_world 5 105 x_ok), 5%nat, None, (x_ws 5),
         [MkT 8 1 2015; MkT 10 1 2021; MkT 12 0 2018; MkT 13 0 2015], (x_pkg_b 5), (MkSrc 313 0 2021).
  split; [vm_compute; reflexivity|]. split; [reflexivity|]. split; [|split; [left; reflexivity|]].
  - split; [right; left; reflexivity|]. right; left. reflexivity.
  - intros t Ht Hp. cbn in Ht. destruct Ht as [<-|[<-|[<-|[<-|[]]]]]; cbn in Hp; discriminate.
Qed.

(* cargo fmt run in the (virtual) workspace root formats every member; naming the same manifest with
   --manifest-path finds no target: main.rs:370 compares the root DIRECTORY with the manifest FILE *)
Lemma root_manifest_path_same_as_cwd_refuted_lemma :
  exists (w : world) (fuel : nat) (md : metadata) (s : tset),
    w_meta w None = Some md /\ w_meta w (Some (w_toml_in w (w_cwd w))) = Some md /\
    get_targets w fuel SRoot None = Ok s /\
    get_targets w fuel SRoot (Some (w_toml_in w (w_cwd w))) = Err ENoTargets.
Proof.
  exists (x_world 5 105 x_ok), 5%nat, (x_ws 5), [MkT 8 1 2015; MkT 10 1 2021; MkT 12 0 2018; MkT 13 0 2015].
  repeat split; vm_compute; reflexivity.
Qed.
