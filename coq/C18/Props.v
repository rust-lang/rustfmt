(* C18/Props.v — the property theorems of C18 (statements only; proofs in Lemmas.v).
   C18: "`cargo fmt` invokes rustfmt on exactly the root source files of all targets of the selected packages (the
   current package, the packages named with -p, or with --all every workspace member and every local path
   dependency, transitively), each file once, each with the edition declared for its target, passing through the
   options given after `--` and `--check` / `--message-format`; its exit status is non-zero exactly when some
   rustfmt invocation failed, and an unknown package or unusable manifest path is an error before anything is
   formatted."

   TRUSTED ORACLES (fields of the record `world`, universally quantified in every theorem):
     w_meta    : option path -> option metadata   the result of `cargo metadata --no-deps [--manifest-path p]`
                                                  (get_cargo_metadata, main.rs:530); None = it failed
     w_canon   : fs::canonicalize(p).unwrap_or(p);  w_exists : Path::exists;  w_toml_in : dir.join(Cargo.toml)
     w_cwd     : the canonical current directory;   w_path_of : PathBuf::from
     w_child   : invocation -> status               what happens to the rustfmt child with that command line
   Also trusted: BTreeSet / BTreeMap iterate in key order and `insert` of an equal element keeps the old one; the
   order on paths, names and editions is the order of their N identifiers; std::process::exit keeps a child's
   code (0..255 on Unix) as it is.
   `fuel` bounds the recursion of --all; fuel_enough and fuel_irrelevant show that it does not matter.
   SWITCHES (Model.v): vkey_all (visited keyed by name / by manifest path) and failure_code_of.  Theorems about
   get_targets / exit_code_of hold for both settings; `_refuted` theorems name the code that exists explicitly
   (get_targets_recursive, exit_code), `fixed_` theorems the repaired one. *)
From Coq Require Import String Ascii ZArith Sorted.
From V Require Import Base.Text C18.Model C18.Lemmas.
Open Scope N_scope.
Open Scope list_scope.

(* ---------------- which files ---------------- *)

(* Root (no -p, no --all): exactly the targets of the packages of the metadata that are selected by main.rs:381-395:
   the only package, or every package when the canonical workspace root equals cwd (without --manifest-path) or
   equals the --manifest-path argument itself, or the package whose canonical manifest path is cwd/Cargo.toml
   (resp. the canonical --manifest-path); inserted in metadata order *)
Theorem targets_spec_root : forall (w : world) (fuel : nat) (marg : option path) (s : tset),
  get_targets w fuel SRoot marg = Ok s ->
  exists md, w_meta w marg = Some md /\ selects w (root_selected w marg md) s /\
             s = add_targets w (flat_map p_targets (root_packages w marg md)) [].
Proof. exact targets_spec_root_lemma. Qed.
Print Assumptions targets_spec_root.

(* ... but pointing at a virtual workspace root with --manifest-path is not the same as running there: the
   workspace root DIRECTORY is compared with the manifest FILE (main.rs:370), so no package is selected *)
Theorem root_manifest_path_same_as_cwd_refuted :
  exists (w : world) (fuel : nat) (md : metadata) (s : tset),
    w_meta w None = Some md /\ w_meta w (Some (w_toml_in w (w_cwd w))) = Some md /\
    get_targets w fuel SRoot None = Ok s /\
    get_targets w fuel SRoot (Some (w_toml_in w (w_cwd w))) = Err ENoTargets.
Proof. exact root_manifest_path_same_as_cwd_refuted_lemma. Qed.
Print Assumptions root_manifest_path_same_as_cwd_refuted.

(* -p names: exactly the targets of the first workspace package with each given name; every name is a member *)
Theorem targets_spec_some : forall (w : world) (fuel : nat) (hitlist : list pkgname) (marg : option path) (s : tset),
  get_targets w fuel (SSome hitlist) marg = Ok s ->
  exists md, w_meta w marg = Some md /\ selects w (some_selected hitlist md) s /\
             (forall n, In n hitlist -> exists p, In p (packages md) /\ p_name p = n) /\
             s = add_targets w (flat_map p_targets
                   (hit_list (packages md) (fold_left (fun h n => nset_insert n h) hitlist []))) [].
Proof. exact targets_spec_some_lemma. Qed.
Print Assumptions targets_spec_some.

(* --all: exactly the targets of all packages of all metadata reachable through path dependencies that exist and
   are not members of the metadata that mentions them -- provided no two followed edges carry the same
   dependency NAME to different manifests *)
Theorem targets_spec_all : forall (w : world) (fuel : nat) (marg : option path) (s : tset),
  distinct_dep_names w marg ->
  get_targets w fuel SAll marg = Ok s -> selects w (all_selected w marg) s.
Proof. exact targets_spec_all_lemma. Qed.
Print Assumptions targets_spec_all.

(* partial: without the hypothesis only one half remains: nothing outside the closure is formatted *)
Theorem targets_spec_all_partial : forall (w : world) (fuel : nat) (marg : option path) (s : tset),
  get_targets w fuel SAll marg = Ok s ->
  forall t, In t s -> exists p st, all_selected w marg p /\ In st (p_targets p) /\ t = from_target w st.
Proof. exact targets_spec_all_partial_lemma. Qed.
Print Assumptions targets_spec_all_partial.

(* the code that exists (visited keyed by dependency name) loses the second of two path dependencies with the
   same package name: witness = workspace {a -> util at ext/util, b -> util at ext2/util}; whatever the fuel *)
Theorem targets_spec_all_refuted :
  exists (w : world) (fuel : nat) (marg : option path) (s : tset) (p : pkg) (st : src_target),
    get_targets_gen w (get_targets_recursive w) fuel SAll marg = Ok s /\
    (forall k, get_targets_gen w (get_targets_recursive w) (k + fuel) SAll marg = Ok s) /\
    all_selected w marg p /\ In st (p_targets p) /\ ~ In (w_canon w (st_src st)) (tpaths s).
Proof. exact targets_spec_all_refuted_lemma. Qed.
Print Assumptions targets_spec_all_refuted.

(* the repair (visited keyed by the dependency's manifest path) needs no hypothesis *)
Theorem fixed_targets_spec_all : forall (w : world) (fuel : nat) (marg : option path) (s : tset),
  get_targets_fixed w fuel SAll marg = Ok s -> selects w (all_selected w marg) s.
Proof. exact fixed_targets_spec_all_lemma. Qed.
Print Assumptions fixed_targets_spec_all.

(* termination: when the keys of all followed edges lie in a finite list U, fuel > |U| never runs out --
   cyclic path dependencies included *)
Theorem fuel_enough : forall (w : world) (U : list N) (fuel : nat) (st : strategy) (marg : option path),
  (forall m n mp, Reach w marg m -> Edge w m n mp -> In (vkey_all n mp) U) ->
  (List.length U < fuel)%nat -> get_targets w fuel st marg <> Err EFuel.
Proof. exact fuel_enough_lemma. Qed.
Print Assumptions fuel_enough.

(* ... and more fuel never changes an answer *)
Theorem fuel_irrelevant : forall (w : world) (fuel k : nat) (st : strategy) (marg : option path) (r : res tset),
  get_targets w fuel st marg = r -> r <> Err EFuel -> get_targets w (k + fuel) st marg = r.
Proof. exact fuel_irrelevant_lemma. Qed.
Print Assumptions fuel_irrelevant.

(* ---------------- each file once, with which edition ---------------- *)

Theorem each_path_once : forall (w : world) (fuel : nat) (st : strategy) (marg : option path) (s : tset),
  get_targets w fuel st marg = Ok s -> NoDup (map t_path s) /\ StronglySorted N.lt (map t_path s).
Proof. exact each_path_once_lemma. Qed.
Print Assumptions each_path_once.

(* ... and the command lines together name each of these files exactly once *)
Theorem each_file_once_in_invocations : forall s : tset,
  NoDup (map t_path s) ->
  NoDup (concat (map snd (by_edition s))) /\
  (forall p, In p (concat (map snd (by_edition s))) <-> In p (map t_path s)).
Proof. exact each_file_once_in_invocations_lemma. Qed.
Print Assumptions each_file_once_in_invocations.

(* for a canonical path shared by several inserted targets, the element kept (hence the edition used) is that of
   the FIRST target inserted with that path: BTreeSet::insert does not replace.  The insertion sequences are given
   by targets_spec_root / targets_spec_some *)
Theorem edition_of_target : forall (l : list target) (t : target),
  In t (kinsert_all t_path l []) <->
  exists l1 l2, l = l1 ++ t :: l2 /\ ~ In (t_path t) (map t_path l1).
Proof. exact edition_of_target_lemma. Qed.
Print Assumptions edition_of_target.

(* hence "each with the edition declared for its target" fails for a file that is the root of two targets with
   different editions: witness = packages a (2015) and b (2021) with the same lib.rs; b's target is formatted
   with 2015 only *)
Theorem edition_shared_file_refuted :
  exists (w : world) (fuel : nat) (marg : option path) (md : metadata) (s : tset) (p : pkg) (st : src_target),
    get_targets w fuel SRoot marg = Ok s /\ w_meta w marg = Some md /\
    root_selected w marg md p /\ In st (p_targets p) /\
    forall t, In t s -> t_path t = w_canon w (st_src st) -> t_edition t <> st_edition st.
Proof. exact edition_shared_file_refuted_lemma. Qed.
Print Assumptions edition_shared_file_refuted.

(* ---------------- the rustfmt command lines ---------------- *)

(* one group per edition present, in ascending edition order, each with the files of that edition in set order *)
Theorem by_edition_spec : forall s : tset,
  StronglySorted N.lt (map fst (by_edition s)) /\
  (forall e, In e (map fst (by_edition s)) <-> exists t, In t s /\ t_edition t = e) /\
  (forall e fs, In (e, fs) (by_edition s) -> fs = map t_path (filter (fun t => t_edition t =? e) s)).
Proof. exact by_edition_spec_lemma. Qed.
Print Assumptions by_edition_spec.

(* run_rustfmt spawns the planned commands one after the other (argv = files ++ [--edition; E] ++ args, stdout
   null iff -q) up to and including the first whose spawn fails; its status is exit_code_of their fates *)
Theorem invocations_spec : forall (w : world) (s : tset) (args : list text) (v : verbosity),
  handle_command_status (fst (run_rustfmt w s args v)) = exit_code_of (map (w_child w) (planned v s args)) /\
  snd (run_rustfmt w s args v) = upto_spawn_failure w (planned v s args) /\
  (forall i, In i (planned v s args) ->
     exists e files, In (e, files) (by_edition s) /\
       i = MkInv (is_quiet v) (map AFile files ++ [AStr (txt "--edition"); AEdition e] ++ map AStr args)) /\
  ((forall i, In i (planned v s args) -> w_child w i <> SpawnFailed) ->
   snd (run_rustfmt w s args v) = planned v s args).
Proof. exact invocations_spec_lemma. Qed.
Print Assumptions invocations_spec.

(* the options after -- reach every rustfmt verbatim and first; cargo-fmt only appends *)
Theorem passthrough : forall (o : opts) (a : list text),
  final_args o = Some a ->
  exists extra, a = o_rustfmt_options o ++ extra /\
    forall x, In x extra -> In x [txt "--check"; txt "-l"; txt "--emit"; txt "json"].
Proof. exact passthrough_lemma. Qed.
Print Assumptions passthrough.

(* --check adds exactly one --check, unless one was already given after -- *)
Theorem check_flag : forall a : list text,
  translate_check false a = a /\
  (In (txt "--check") a -> translate_check true a = a) /\
  (~ In (txt "--check") a -> translate_check true a = a ++ [txt "--check"]).
Proof. exact check_flag_lemma. Qed.
Print Assumptions check_flag.

Theorem message_format_short : forall a : list text,
  (has_list_files a -> convert_message_format (txt "short") a = Some a) /\
  (~ has_list_files a -> convert_message_format (txt "short") a = Some (a ++ [txt "-l"])).
Proof. exact message_format_short_lemma. Qed.
Print Assumptions message_format_short.

(* json: an error together with any --emit... or --check (also the one added by cargo fmt --check) *)
Theorem message_format_json : forall a : list text,
  (has_emit a \/ In (txt "--check") a -> convert_message_format (txt "json") a = None) /\
  (~ has_emit a -> ~ In (txt "--check") a ->
   convert_message_format (txt "json") a = Some (a ++ [txt "--emit"; txt "json"])).
Proof. exact message_format_json_lemma. Qed.
Print Assumptions message_format_json.

Theorem message_format_human : forall a : list text, convert_message_format (txt "human") a = Some a.
Proof. exact message_format_human_lemma. Qed.
Print Assumptions message_format_human.

Theorem message_format_other : forall (mf : text) (a : list text),
  mf <> txt "short" -> mf <> txt "json" -> mf <> txt "human" -> convert_message_format mf a = None.
Proof. exact message_format_other_lemma. Qed.
Print Assumptions message_format_other.

(* execute outside the --version / --help / --print-config requests: the strategy, the translated options and the
   manifest argument go to format_crate; its targets decide between an error and the run of the planned commands.
   -q and -v are not handed to rustfmt (they only select stdout and printing) *)
Theorem execute_spec : forall (w : world) (fuel : nat) (o : opts) (v : verbosity) (a : list text) (marg : option path),
  info_request o = false -> verbosity_of o = Some v -> final_args o = Some a -> manifest_arg w o = Some marg ->
  match get_targets w fuel (strategy_from_opts o) marg with
  | Err _ => execute w fuel o = (FAILURE, [])
  | Ok s => execute w fuel o = (exit_code_of (map (w_child w) (planned v s a)),
                                upto_spawn_failure w (planned v s a))
  end.
Proof. exact execute_spec_lemma. Qed.
Print Assumptions execute_spec.

(* ---------------- exit status ---------------- *)

(* false of the code that exists: a child killed by a signal has no code and is dropped by the filter_map *)
Theorem exit_iff_refuted :
  exists ss : list status, ~ (exit_code ss <> 0%Z <-> exists s, In s ss /\ s <> Exited 0).
Proof. exact exit_iff_refuted_lemma. Qed.
Print Assumptions exit_iff_refuted.

(* partial: it holds when no child dies from a signal (failed spawns included) *)
Theorem exit_iff_partial : forall ss : list status,
  ~ In Signaled ss -> (exit_code_of ss <> 0%Z <-> exists s, In s ss /\ s <> Exited 0).
Proof. exact exit_iff_partial_lemma. Qed.
Print Assumptions exit_iff_partial.

(* the repair (a status without a code is a failure) makes it unconditional *)
Theorem fixed_exit_iff : forall ss : list status,
  exit_code_fixed ss <> 0%Z <-> exists s, In s ss /\ s <> Exited 0.
Proof. exact fixed_exit_iff_lemma. Qed.
Print Assumptions fixed_exit_iff.

(* end to end, same restriction: non-zero exactly when some spawned rustfmt did not exit with 0 *)
Theorem execute_exit_partial :
  forall (w : world) (fuel : nat) (o : opts) (v : verbosity) (a : list text) (marg : option path) (s : tset),
  info_request o = false -> verbosity_of o = Some v -> final_args o = Some a -> manifest_arg w o = Some marg ->
  get_targets w fuel (strategy_from_opts o) marg = Ok s ->
  (forall i, In i (planned v s a) -> w_child w i <> Signaled) ->
  (fst (execute w fuel o) <> 0%Z <-> exists i, In i (snd (execute w fuel o)) /\ w_child w i <> Exited 0).
Proof. exact execute_exit_partial_lemma. Qed.
Print Assumptions execute_exit_partial.

(* ---------------- errors before anything is formatted ---------------- *)

(* -p with a name that is no workspace member: the error names the least such name; no rustfmt is run *)
Theorem unknown_package_before_format :
  forall (w : world) (fuel : nat) (v : verbosity) (a : list text) (hitlist : list pkgname) (marg : option path)
         (md : metadata) (n : pkgname),
  w_meta w marg = Some md -> In n hitlist -> (forall p, In p (packages md) -> p_name p <> n) ->
  exists n', get_targets w fuel (SSome hitlist) marg = Err (ENotMember n') /\
             In n' hitlist /\ (forall p, In p (packages md) -> p_name p <> n') /\ n' <= n /\
             format_crate w fuel v (SSome hitlist) a marg = (Err (ENotMember n'), []).
Proof. exact unknown_package_before_format_lemma. Qed.
Print Assumptions unknown_package_before_format.

(* ... but together with --all the -p names are ignored (main.rs:329): an unknown package is then no error *)
Theorem unknown_package_with_all_refuted :
  exists (w : world) (fuel : nat) (o : opts) (n : pkgname) (md : metadata),
    o_format_all o = true /\ In n (o_packages o) /\ manifest_arg w o = Some None /\
    w_meta w None = Some md /\ (forall p, In p (packages md) -> p_name p <> n) /\
    fst (execute w fuel o) = 0%Z /\ snd (execute w fuel o) <> [].
Proof. exact unknown_package_with_all_refuted_lemma. Qed.
Print Assumptions unknown_package_with_all_refuted.

(* cargo metadata fails at the (current or given) manifest: error, no rustfmt is run *)
Theorem metadata_failure_before_format :
  forall (w : world) (fuel : nat) (v : verbosity) (st : strategy) (a : list text) (marg : option path),
  w_meta w marg = None -> (0 < fuel)%nat ->
  format_crate w fuel v st a marg = (Err EMetadata, []).
Proof. exact metadata_failure_before_format_lemma. Qed.
Print Assumptions metadata_failure_before_format.

(* any error of the target selection (also cargo metadata failing on a dependency met during --all) comes
   before the first rustfmt *)
Theorem target_error_before_format :
  forall (w : world) (fuel : nat) (v : verbosity) (st : strategy) (a : list text) (marg : option path) (e : error),
  get_targets w fuel st marg = Err e -> format_crate w fuel v st a marg = (Err e, []).
Proof. exact target_error_before_format_lemma. Qed.
Print Assumptions target_error_before_format.

(* -q with -v, a bad --message-format combination, or a --manifest-path that does not end in Cargo.toml:
   exit status 1 and no rustfmt is run *)
Theorem usage_error_before_format : forall (w : world) (fuel : nat) (o : opts),
  info_request o = false ->
  verbosity_of o = None \/ final_args o = None \/ manifest_arg w o = None ->
  execute w fuel o = (FAILURE, []).
Proof. exact usage_error_before_format_lemma. Qed.
Print Assumptions usage_error_before_format.
