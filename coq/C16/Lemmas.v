(* C16/Lemmas.v — proofs for C16: a shape operation that can fail is a checked subtraction of the width followed
   by a total function F.  The model writes the match out; it is option_map F (checked_sub _ _) unfolded, so each
   specification is map_checked_sub_spec or _inv at the F that unification finds. *)
From V Require Import Base.Text C16.Model.
From Coq Require Import Lia.
Arguments N.add : simpl never.
Arguments N.sub : simpl never.
Arguments N.leb : simpl never.

Lemma checked_sub_spec a b : (b <= a -> checked_sub a b = Some (a - b)) /\ (a < b -> checked_sub a b = None).
Proof.
  unfold checked_sub. destruct (N.leb_spec b a); split; intros; try reflexivity; lia.
Qed.
Lemma checked_sub_inv a b c : checked_sub a b = Some c -> b <= a /\ c = a - b.
Proof.
  unfold checked_sub. destruct (N.leb_spec b a) as [H|H]; [|discriminate].
  intros [= <-]. split; [exact H|reflexivity].
Qed.

Lemma map_checked_sub_spec {A : Type} (F : N -> A) a b :
  (b <= a -> option_map F (checked_sub a b) = Some (F (a - b))) /\
  (a < b -> option_map F (checked_sub a b) = None).
Proof.
  destruct (checked_sub_spec a b) as [H1 H2].
  split; intros H; [rewrite (H1 H)|rewrite (H2 H)]; reflexivity.
Qed.
Lemma map_checked_sub_inv {A : Type} (F : N -> A) a b x :
  option_map F (checked_sub a b) = Some x -> b <= a /\ x = F (a - b).
Proof.
  destruct (checked_sub a b) as [c|] eqn:E; [|discriminate].
  intros [= <-]. apply checked_sub_inv in E as [H ->]. split; [exact H|reflexivity].
Qed.

Lemma sub_width_opt_spec s d :
  (d <= width s -> sub_width_opt s d = Some (MkShape (width s - d) (ind s) (offset s))) /\
  (width s < d -> sub_width_opt s d = None).
Proof. apply map_checked_sub_spec. Qed.

Lemma shrink_left_opt_spec s d :
  (d <= width s -> shrink_left_opt s d = Some (MkShape (width s - d) (indent_add_n (ind s) d) (offset s + d))) /\
  (width s < d -> shrink_left_opt s d = None).
Proof. apply map_checked_sub_spec. Qed.

Lemma sub_width_edge_eq s d s' : sub_width_opt s d = Some s' -> used_width s' + width s' + d = used_width s + width s.
Proof.
  intros E. apply map_checked_sub_inv in E as [H ->].
  unfold used_width. cbn [block ind offset width]. lia.
Qed.
Lemma right_edge_monotone_lemma s d s' :
  (shrink_left_opt s d = Some s' -> used_width s' + width s' = used_width s + width s) /\
  (offset_left_opt s d = Some s' -> used_width s' + width s' = used_width s + width s) /\
  (sub_width_opt s d = Some s' -> used_width s' + width s' <= used_width s + width s).
Proof.
  split; [|split]; intros E.
  - apply map_checked_sub_inv in E as [H ->].
    unfold used_width. cbn [block ind offset width indent_add_n]. lia.
  - (* the offset added on the left is what sub_width_opt then takes on the right *)
    apply sub_width_edge_eq in E. unfold used_width, add_offset in E. cbn [block ind offset width] in E.
    unfold used_width. lia.
  - apply sub_width_edge_eq in E. lia.
Qed.

Lemma indent_sub_defined a b : (exists c, indent_sub a b = Some c) <-> (block b <= block a /\ align b <= align a).
Proof.
  unfold indent_sub. split.
  - intros [c Hc].
    destruct (checked_sub (block a) (block b)) eqn:E1; [|discriminate Hc].
    destruct (checked_sub (align a) (align b)) eqn:E2; [|discriminate Hc].
    split; [exact (proj1 (checked_sub_inv _ _ _ E1))|exact (proj1 (checked_sub_inv _ _ _ E2))].
  - intros [H1 H2]. rewrite (proj1 (checked_sub_spec _ _) H1), (proj1 (checked_sub_spec _ _) H2).
    eexists. reflexivity.
Qed.
Lemma indent_sub_n_defined a n : (exists c, indent_sub_n a n = Some c) <-> n <= align a.
Proof.
  split.
  - intros [c Hc]. exact (proj1 (map_checked_sub_inv _ _ _ _ Hc)).
  - intros H. eexists. exact (proj1 (map_checked_sub_spec _ _ _) H).
Qed.

(* indented never produces a shape wider than the page allows *)
Lemma indented_fits m i : indent_width i + width (indented m i) <= N.max m (indent_width i).
Proof. unfold indented, saturating_sub. cbn [width]. lia. Qed.
