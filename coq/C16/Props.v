(* C16/Props.v — C16: "rustfmt never terminates abnormally ... it does not panic, abort, overflow its stack on
   ordinary nesting, or die from a signal, and a panic inside the Rust parser or inside the formatting of one macro is
   contained and reported as an ordinary failure of that input."  What a theorem can say is the arithmetic and the
   control decisions; stack depth, the allocator and rustc's parser are runtime facts that checks/c16.py searches. *)
From V Require Import Base.Text C16.Model C16.Lemmas.
From V Require C06.Model C06.Lemmas C11.Ord C11.Model C11.Lemmas C03.Model C03.Lemmas.

(* width arithmetic goes through checked operations that turn "does not fit" into a recoverable failure:
   they fail exactly when the width is not available and never underflow *)
Theorem sub_width_total : forall s d,
  (d <= width s -> sub_width_opt s d = Some (MkShape (width s - d) (ind s) (offset s))) /\
  (width s < d -> sub_width_opt s d = None).
Proof. exact sub_width_opt_spec. Qed.
Print Assumptions sub_width_total.

Theorem shrink_left_total : forall s d,
  (d <= width s -> shrink_left_opt s d = Some (MkShape (width s - d) (indent_add_n (ind s) d) (offset s + d))) /\
  (width s < d -> shrink_left_opt s d = None).
Proof. exact shrink_left_opt_spec. Qed.
Print Assumptions shrink_left_total.

(* the right edge of a shape never moves right under the shrinking operations *)
Theorem right_edge_monotone : forall s d s',
  (shrink_left_opt s d = Some s' -> used_width s' + width s' = used_width s + width s) /\
  (offset_left_opt s d = Some s' -> used_width s' + width s' = used_width s + width s) /\
  (sub_width_opt s d = Some s' -> used_width s' + width s' <= used_width s + width s).
Proof. exact right_edge_monotone_lemma. Qed.
Print Assumptions right_edge_monotone.

(* the two UNCHECKED subtractions of Indent are defined exactly under rhs <= lhs: every call site owes this *)
Theorem indent_sub_precondition : forall a b,
  (exists c, indent_sub a b = Some c) <-> (block b <= block a /\ align b <= align a).
Proof. exact indent_sub_defined. Qed.
Print Assumptions indent_sub_precondition.

Theorem indent_sub_n_precondition : forall a n, (exists c, indent_sub_n a n = Some c) <-> n <= align a.
Proof. exact indent_sub_n_defined. Qed.
Print Assumptions indent_sub_n_precondition.

(* exit status is 0 or 1 on both paths of main.rs (from C06) *)
Theorem exit_range : forall f c,
  (C06.Model.exit_file f c = 0 \/ C06.Model.exit_file f c = 1) /\ (C06.Model.exit_stdin f = 0 \/ C06.Model.exit_stdin f = 1).
Proof. exact C06.Lemmas.exit_range_lemma. Qed.
Print Assumptions exit_range.

(* the comparator handed to slice::sort is a total preorder, so sorting cannot panic on an inconsistent order (from C11) *)
Theorem sort_comparator_consistent : C11.Ord.TotalPreorder C11.Model.version_sort.
Proof. exact C11.Lemmas.vs_total_preorder. Qed.
Print Assumptions sort_comparator_consistent.

(* the comment/code segmentation never reaches its panic arm and never underflows its depth counters (from C03) *)
Theorem classify_never_panics : forall t, C03.Model.classify_panics t = false.
Proof. exact C03.Lemmas.classify_no_panic. Qed.
Print Assumptions classify_never_panics.
