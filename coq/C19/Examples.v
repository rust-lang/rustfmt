(* C19/Examples.v — non-vacuity: concrete values meeting the hypotheses of the theorems of Props.v, and the
   concrete wrong answers behind the _refuted theorems. *)
From V Require Import Base.Text C19.Model C19.Lemmas C19.Run.
From Coq Require Import String Ascii.
Open Scope string_scope.
Open Scope list_scope.
Open Scope N_scope.

Definition TAB_ : string := String (ascii_of_nat 9) "".
Definition rs_files : text -> bool := ends_with (T ".rs").

(* Two files (one filtered out), three hunks; git-style preamble, diff -u stamps, a section text, counts
   left out, an addition at line 1, a pure deletion (count 0), a `\ No newline` line. *)
Definition E1 : patch := Eval vm_compute in
  [ mkFile (map T ["diff --git a/src/x.rs b/src/x.rs"; "index 83db48f..bf2a1c4 100644"])
      (T "a/src/x.rs") (T (TAB_ ++ "2020-01-01 10:00:00.000000000 +0100")%string)
      (T "b/src/x.rs") (T (TAB_ ++ "2020-01-02 10:00:00.000000000 +0100")%string)
      [ mkHunk 0 0 1 1 false true [] (map T ["+// first line"]);
        mkHunk 10 3 12 4 false false (T "fn f(x: u32) -> u32 {")
          (map T [" a"; "-b"; "+c"; "+d"; " e"; "\ No newline at end of file"]);
        mkHunk 30 2 32 0 false false [] (map T ["-gone"; "-gone too"]) ];
    mkFile (map T ["diff --git a/README.md b/README.md"; "new file mode 100644"])
      (T "/dev/null") [] (T "b/README.md") []
      [ mkHunk 0 0 1 2 false false [] (map T ["+hello"; "+world"]) ] ].

Example E1_render : render E1 = map T
  [ "diff --git a/src/x.rs b/src/x.rs"; "index 83db48f..bf2a1c4 100644";
    ("--- a/src/x.rs" ++ TAB_ ++ "2020-01-01 10:00:00.000000000 +0100")%string;
    ("+++ b/src/x.rs" ++ TAB_ ++ "2020-01-02 10:00:00.000000000 +0100")%string;
    "@@ -0,0 +1 @@"; "+// first line";
    "@@ -10,3 +12,4 @@ fn f(x: u32) -> u32 {"; " a"; "-b"; "+c"; "+d"; " e"; "\ No newline at end of file";
    "@@ -30,2 +32,0 @@"; "-gone"; "-gone too";
    "diff --git a/README.md b/README.md"; "new file mode 100644";
    "--- /dev/null"; "+++ b/README.md";
    "@@ -0,0 +1,2 @@"; "+hello"; "+world" ].
Proof. vm_compute. reflexivity. Qed.

(* hypothesis of scan_render / format_diff_render / fixed_needs_less *)
Example E1_well_formed : well_formed 1 E1.
Proof. exact (wf_check 1 E1 eq_refl). Qed.

Example E1_expected : expected 1 rs_files E1 = [(T "src/x.rs", 1, 1); (T "src/x.rs", 12, 15)].
Proof. vm_compute. reflexivity. Qed.

(* the conclusion of scan_render on E1, computed *)
Example E1_scan : scan_diff 1 rs_files (render E1) =
  Ok ([T "src/x.rs"], [(T "src/x.rs", 1, 1); (T "src/x.rs", 12, 15)]).
Proof. vm_compute. reflexivity. Qed.

(* with the filter `.*` both files are formatted *)
Example E1_scan_all : scan_diff 1 any_file (render E1) =
  Ok ([T "src/x.rs"; T "README.md"],
      [(T "src/x.rs", 1, 1); (T "src/x.rs", 12, 15); (T "README.md", 1, 2)]).
Proof. vm_compute. reflexivity. Qed.

(* hypothesis of scan_text_render *)
Example E1_clean : Forall line_clean (render E1).
Proof. apply (forallb_Forall line_cleanb _ _ line_cleanb_ok). vm_compute. reflexivity. Qed.

Example E1_scan_text : scan_text 1 rs_files (unlines (render E1)) =
  Ok ([T "src/x.rs"], [(T "src/x.rs", 1, 1); (T "src/x.rs", 12, 15)]).
Proof. vm_compute. reflexivity. Qed.

(* (b), second disjunct: a deleted file, -p3: `+++ /dev/null` has two slashes only, the header does not
   match, but the hunk has no post-image lines *)
Definition E2 : patch := Eval vm_compute in
  [ mkFile [] (T "a/b/c/x.rs") [] (T "a/b/c/x.rs") [] [ mkHunk 1 1 1 1 true true [] (map T ["-a"; "+b"]) ];
    mkFile (map T ["deleted file mode 100644"]) (T "a/b/c/y.rs") [] (T "/dev/null") []
      [ mkHunk 1 2 0 0 false false [] (map T ["-a"; "-b"]) ] ].

Example E2_well_formed : well_formed 3 E2.
Proof. exact (wf_check 3 E2 eq_refl). Qed.

Example E2_scan : scan_diff 3 rs_files (render E2) = Ok ([T "x.rs"], [(T "x.rs", 1, 1)]).
Proof. vm_compute. reflexivity. Qed.

(* files_are_range_paths: hypothesis met by E1_scan_all *)

(* nonheader_lines_contribute_nothing / other_lines_are_not_headers: hypotheses met *)
Example nonheader_hyp :
  sc_fh the_scanner 1 (T "index 83db48f..bf2a1c4 100644") = FhNone /\
  sc_hh the_scanner (T "index 83db48f..bf2a1c4 100644") = None /\
  sc_fh the_scanner 1 (T "+++") = FhNone /\ sc_hh the_scanner (T "+++") = None /\
  sc_hh the_scanner (T "@@ no numbers @@") = None.
Proof. vm_compute. repeat split; reflexivity. Qed.

(* zero_count_skipped: hypotheses met by a pure deletion header *)
Example zero_count_hyp :
  sc_hh the_scanner (T "@@ -30,2 +32,0 @@") = Some (T "32", Some (T "0")) /\
  parse_u32 (T "32") = Some 32 /\ parse_u32 (T "0") = Some 0.
Proof. vm_compute. repeat split; reflexivity. Qed.

(* missing_count_is_one: hypotheses met *)
Example missing_count_hyp :
  sc_hh the_scanner (T "@@ -3 +7 @@") = Some (T "7", None) /\ parse_u32 (T "7") = Some 7 /\ 7 + 1 <= U32_MAX /\
  step_diff 0 rs_files (mkState (Some (T "x.rs")) [] []) (T "@@ -3 +7 @@") =
  Ok (mkState (Some (T "x.rs")) [T "x.rs"] [(T "x.rs", 7, 7)]).
Proof. repeat split; try (vm_compute; reflexivity). (* 7 + 1 <= U32_MAX *) vm_compute. discriminate. Qed.

(* omitted_count_is_missing: the first hunk of E1 *)
Example omitted_count_hyp :
  let h := mkHunk 0 0 1 1 false true [] [] in
  has_plus_digit (section h) = false /\ omit_n h = true /\ n_cnt h = 1 /\
  render_hunk_header h = T "@@ -0,0 +1 @@".
Proof. vm_compute. repeat split; reflexivity. Qed.

(* empty_runs_nothing: a diff of non-Rust files gives an empty result *)
Example empty_hyp :
  scan_diff 1 rs_files (map T ["--- a/README.md"; "+++ b/README.md"; "@@ -1 +1,2 @@"; " a"; "+b"]) = Ok ([], []).
Proof. vm_compute. reflexivity. Qed.

(* failure_propagates: hypotheses met by E1 and a rustfmt that exits with an error *)
Example failure_hyp :
  let r := ([T "src/x.rs"], [(T "src/x.rs", 1, 1); (T "src/x.rs", 12, 15)]) in
  scan_diff 1 rs_files (render E1) = Ok r /\ invocation r = Some r /\
  (fun _ => Exited false) r <> Exited true /\
  format_diff 1 rs_files (fun _ => Exited false) (render E1) = ExitErr /\
  format_diff 1 rs_files (fun _ => SpawnFailed) (render E1) = ExitErr /\
  format_diff 1 rs_files (fun _ => Exited true) (render E1) = ExitOk.
Proof. repeat split; try (vm_compute; reflexivity). (* Exited false <> Exited true *) discriminate. Qed.

(* ---- the wrong answers behind the _refuted theorems (scan = the code as it is) ---- *)

(* (a)  @@ -10,3 +12,4 @@ let y = x +1;  *)
Example section_refuted_values :
  render W_section = map T ["--- a/src/x.rs"; "+++ b/src/x.rs"; "@@ -10,3 +12,4 @@ let y = x +1;"; "+foo"] /\
  scan 1 any_file (render W_section) = Ok ([T "src/x.rs"], [(T "src/x.rs", 1, 1)]) /\
  expected 1 any_file W_section = [(T "src/x.rs", 12, 15)].
Proof. vm_compute. repeat split; reflexivity. Qed.

(* (b) -p1 *)
Example slashes_refuted_values :
  render W_slashes = map T ["--- a/x.rs"; "+++ b/x.rs"; "@@ -1,1 +1,2 @@"; "+a";
                            "--- y.rs"; "+++ y.rs"; "@@ -1,1 +7,3 @@"; "+b"] /\
  scan 1 any_file (render W_slashes) = Ok ([T "x.rs"], [(T "x.rs", 1, 2); (T "x.rs", 7, 9)]) /\
  expected 1 any_file W_slashes = [(T "x.rs", 1, 2)].
Proof. vm_compute. repeat split; reflexivity. Qed.

(* (c) *)
Example path_refuted_values :
  scan 1 any_file (render W_path) = Ok ([T "my"], [(T "my", 1, 1)]) /\
  expected 1 any_file W_path = [(T "my file.rs", 1, 1)].
Proof. vm_compute. repeat split; reflexivity. Qed.

(* (d) *)
Example body_refuted_values :
  render W_body = map T ["--- a/x.rs"; "+++ b/x.rs"; "@@ -1,1 +1,2 @@"; "+++ b/other.rs"; "@@ -1,1 +8,1 @@"; "+z"] /\
  scan 1 any_file (render W_body) = Ok ([T "x.rs"; T "other.rs"], [(T "x.rs", 1, 2); (T "other.rs", 8, 8)]) /\
  expected 1 any_file W_body = [(T "x.rs", 1, 2); (T "x.rs", 8, 8)].
Proof. vm_compute. repeat split; reflexivity. Qed.

(* ---- the repaired scanner ---- *)

(* hypothesis of fixed_scan_render met where well_formed fails *)
Example fixed_hyp : well_formed_fixed 1 W_section /\ well_formed_fixed 1 W_slashes.
Proof.
  split.
  - apply (wf_fixed_check CSection); [exact (proj1 section_condition_witness)|]. repeat constructor.
  - apply (wf_fixed_check CSlashes); [exact (proj1 slashes_condition_witness)|].
    (* b/x.rs has the slash that -p1 strips; y.rs has none, and no stamp that could supply one *)
    constructor; [intros H; discriminate H|]. constructor; [intros _; left; reflexivity|constructor].
Qed.

Example fixed_values :
  scan_fixed 1 any_file (render W_section) = Ok ([T "src/x.rs"], [(T "src/x.rs", 12, 15)]) /\
  scan_fixed 1 any_file (render W_slashes) = Ok ([T "x.rs"], [(T "x.rs", 1, 2)]).
Proof. vm_compute. repeat split; reflexivity. Qed.

(* (b') *)
Example fixed_slashes_refuted_values :
  scan_fixed 1 any_file (render W_stamp_slash) = Ok ([T "01/01"], [(T "01/01", 1, 3)]) /\
  expected 1 any_file W_stamp_slash = [].
Proof. vm_compute. repeat split; reflexivity. Qed.
