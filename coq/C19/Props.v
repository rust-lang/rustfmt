(* C19/Props.v — the property theorems of C19 (statements only; proofs in Lemmas.v).
   C19: "rustfmt-format-diff, given a unified diff, asks rustfmt to format precisely the files whose post-image
   path (after stripping the requested number of prefix components) matches the filter, and for each of them
   precisely the post-image line range announced by each hunk header (start and count, a missing count meaning
   one line); hunks whose post-image is empty, files that do not match and lines that are not headers
   contribute nothing, an empty result runs nothing, and a failing rustfmt makes the tool fail."
   All statements are for every patch (any number of files, hunks, lines), every -p value and every filter
   function: no bound.

   scan_diff is Model.the_scanner's scan: the code as it is (current_code) or with the two repairs (repaired);
   `scan` / `scan_fixed` name the two explicitly.  The theorems about scan_diff hold for either setting of
   the switch; the `_refuted` theorems are about `scan`, the `fixed_` theorems about `scan_fixed`.

   Modelling restrictions: see the head of Model.v (ASCII \d, abstract filter, debug-build overflow check). *)
From V Require Import Base.Text C19.Model C19.Lemmas.
Open Scope N_scope.

(* main clause: on the printed form of any well-formed patch the scan yields exactly the expected ranges,
   in order, and the files named by them *)
Theorem scan_render : forall p filt d, well_formed p d ->
  scan_diff p filt (render d) = Ok (file_set (expected p filt d), expected p filt d).
Proof. exact scan_diff_render. Qed.
Print Assumptions scan_render.

(* the same from the input text, through BufRead::lines *)
Theorem scan_text_render : forall p filt d, well_formed p d -> Forall line_clean (render d) ->
  scan_text p filt (unlines (render d)) = expected_result p filt d.
Proof. exact scan_text_render_lemma. Qed.
Print Assumptions scan_text_render.

(* the lines the scanner sees never contain LF (so `.` of the regexes is `any character`) *)
Theorem lines_have_no_lf : forall input, Forall (fun l => ~ In LF l) (str_lines input).
Proof. exact str_lines_no_lf. Qed.
Print Assumptions lines_have_no_lf.

(* `precisely the files`: for ANY input, the files passed to rustfmt are the set of the paths of the ranges *)
Theorem files_are_range_paths : forall p filt lines fs rs, scan_diff p filt lines = Ok (fs, rs) ->
  fs = file_set rs /\ NoDup fs /\ forall f, In f fs <-> In f (map rpath rs).
Proof. exact scan_diff_files. Qed.
Print Assumptions files_are_range_paths.

(* `lines that are not headers contribute nothing`: a line on which both patterns fail can be inserted
   (or removed) anywhere in any input *)
Theorem nonheader_lines_contribute_nothing : forall p filt l pre post,
  sc_fh the_scanner p l = FhNone -> sc_hh the_scanner l = None ->
  scan_diff p filt (pre ++ l :: post) = scan_diff p filt (pre ++ post).
Proof. exact scan_diff_insert_inert. Qed.
Print Assumptions nonheader_lines_contribute_nothing.

(* ... (f) and every line whose first character is neither '+' nor '@' is such a line:
   `--- old`, `diff --git`, `index`, `rename from`, context and removed lines *)
Theorem other_lines_are_not_headers : forall p c l, c <> PLUS -> c <> AT ->
  sc_fh the_scanner p (c :: l) = FhNone /\ sc_hh the_scanner (c :: l) = None.
Proof. exact first_char_inert. Qed.
Print Assumptions other_lines_are_not_headers.

(* (d, first half) a body line of the right shape never looks like a hunk header: proved, not assumed *)
Theorem body_line_is_no_hunk_header : forall l, body_shape l -> at2 l = false.
Proof. exact body_shape_not_at. Qed.
Print Assumptions body_line_is_no_hunk_header.

(* `hunks whose post-image is empty contribute nothing`: a header with count 0 leaves the state as it is *)
Theorem zero_count_skipped : forall p filt s l ds cs,
  sc_hh the_scanner l = Some (ds, Some cs) -> parse_u32 ds <> None -> parse_u32 cs = Some 0 ->
  step_diff p filt s l = Ok s.
Proof. exact zero_count_skipped_lemma. Qed.
Print Assumptions zero_count_skipped.

(* `a missing count meaning one line`: a header without count pushes [start, start] *)
Theorem missing_count_is_one : forall p filt s l ds a file,
  sc_hh the_scanner l = Some (ds, None) -> parse_u32 ds = Some a -> a + 1 <= U32_MAX ->
  st_cur s = Some file -> filt file = true ->
  step_diff p filt s l =
  Ok (mkState (Some file) (set_insert file (st_files s)) (st_ranges s ++ [(file, a, a)])).
Proof. exact missing_count_is_one_lemma. Qed.
Print Assumptions missing_count_is_one.

(* ... and the printed header of a one-line hunk with the count left out is read as such *)
Theorem omitted_count_is_missing : forall h,
  has_plus_digit (section h) = false -> omit_n h = true -> n_cnt h = 1 ->
  sc_hh the_scanner (render_hunk_header h) = Some (num (n_start h), None).
Proof. exact omitted_count_capture. Qed.
Print Assumptions omitted_count_is_missing.

(* `an empty result runs nothing` (and the tool succeeds whatever rustfmt would do) *)
Theorem empty_runs_nothing : forall r exec, fst r = [] \/ snd r = [] ->
  invocation r = None /\ run_rustfmt exec r = true.
Proof. exact empty_runs_nothing_lemma. Qed.
Print Assumptions empty_runs_nothing.

(* `a failing rustfmt makes the tool fail`: rustfmt not started or not exiting with success => Err, exit 1 *)
Theorem failure_propagates : forall p filt exec lines r inv,
  scan_diff p filt lines = Ok r -> invocation r = Some inv -> exec inv <> Exited true ->
  run_rustfmt exec r = false /\ format_diff p filt exec lines = ExitErr.
Proof. exact failure_propagates_lemma. Qed.
Print Assumptions failure_propagates.

(* the whole tool on a well-formed patch: one rustfmt process with exactly the expected files and ranges,
   none if there is nothing to format; the exit status follows rustfmt's *)
Theorem format_diff_render : forall p filt exec d, well_formed p d ->
  format_diff p filt exec (render d) =
  match expected p filt d with
  | [] => ExitOk
  | e => match exec (file_set e, e) with
         | Exited true => ExitOk
         | _ => ExitErr
         end
  end.
Proof. exact format_diff_render_lemma. Qed.
Print Assumptions format_diff_render.

(* ---- each condition of well_formed is needed by the code as it is ---- *)

(* (a) REFUTED [known defect]: a section text with '+' digit: the range is read from the section *)
Theorem section_condition_refuted : exists p filt d,
  well_formed_except CSection p d /\ scan p filt (render d) <> expected_result p filt d.
Proof. exists 1%nat, any_file, W_section. exact section_condition_witness. Qed.
Print Assumptions section_condition_refuted.

(* (b) REFUTED [known defect]: a post-image path with fewer than p slashes: its hunks go to the previous file *)
Theorem slashes_condition_refuted : exists p filt d,
  well_formed_except CSlashes p d /\ scan p filt (render d) <> expected_result p filt d.
Proof. exists 1%nat, any_file, W_slashes. exact slashes_condition_witness. Qed.
Print Assumptions slashes_condition_refuted.

(* (c) refuted (excluded by the property): whitespace in the stripped path; also with the repairs *)
Theorem path_condition_refuted : exists p filt d,
  well_formed_except CPath p d /\ scan p filt (render d) <> expected_result p filt d /\
  scan_fixed p filt (render d) <> expected_result p filt d /\ well_formed_fixed_except CPath p d.
Proof. exists 1%nat, any_file, W_path. exact path_condition_witness. Qed.
Print Assumptions path_condition_refuted.

(* refuted: text glued to the post-image path (a stamp that does not start with whitespace) *)
Theorem stamp_condition_refuted : exists p filt d,
  well_formed_except CStamp p d /\ scan p filt (render d) <> expected_result p filt d /\
  scan_fixed p filt (render d) <> expected_result p filt d /\ well_formed_fixed_except CStamp p d.
Proof. exists 0%nat, any_file, W_stamp. exact stamp_condition_witness. Qed.
Print Assumptions stamp_condition_refuted.

(* refuted: an extended header line that starts with @@ *)
Theorem pre_condition_refuted : exists p filt d,
  well_formed_except CPre p d /\ scan p filt (render d) <> expected_result p filt d /\
  scan_fixed p filt (render d) <> expected_result p filt d /\ well_formed_fixed_except CPre p d.
Proof. exists 0%nat, any_file, W_pre. exact pre_condition_witness. Qed.
Print Assumptions pre_condition_refuted.

(* refuted: a body line that does not start with ' ', '+', '-', '\' *)
Theorem shape_condition_refuted : exists p filt d,
  well_formed_except CShape p d /\ scan p filt (render d) <> expected_result p filt d /\
  scan_fixed p filt (render d) <> expected_result p filt d /\ well_formed_fixed_except CShape p d.
Proof. exists 0%nat, any_file, W_shape. exact shape_condition_witness. Qed.
Print Assumptions shape_condition_refuted.

(* (d) REFUTED: an added line whose text starts with `++ `: it is taken for a file header; also with the repairs *)
Theorem body_condition_refuted : exists p filt d,
  well_formed_except CBody p d /\ scan p filt (render d) <> expected_result p filt d /\
  scan_fixed p filt (render d) <> expected_result p filt d /\ well_formed_fixed_except CBody p d.
Proof. exists 1%nat, any_file, W_body. exact body_condition_witness. Qed.
Print Assumptions body_condition_refuted.

(* (e) REFUTED: start + count beyond u32: panic (debug build); also with the repairs *)
Theorem u32_condition_refuted : exists p filt d,
  well_formed_except CU32 p d /\ scan p filt (render d) = Panic /\
  scan_fixed p filt (render d) = Panic /\ well_formed_fixed_except CU32 p d.
Proof. exists 0%nat, any_file, W_u32. exact u32_condition_witness. Qed.
Print Assumptions u32_condition_refuted.

(* ---- the repaired scanner ---- *)

(* main clause for the repaired scanner, without (a) and with the rest (b') of (b) *)
Theorem fixed_scan_render : forall p filt d, well_formed_fixed p d ->
  scan_fixed p filt (render d) = Ok (file_set (expected p filt d), expected p filt d).
Proof. exact scan_render_fixed. Qed.
Print Assumptions fixed_scan_render.

(* the repaired scanner needs less *)
Theorem fixed_needs_less : forall p d, well_formed p d -> well_formed_fixed p d.
Proof. exact well_formed_weaken. Qed.
Print Assumptions fixed_needs_less.

(* the two repairs repair the witnesses of (a) and (b) *)
Theorem fixed_repairs_witnesses :
  scan_fixed 1 any_file (render W_section) = expected_result 1 any_file W_section /\
  scan_fixed 1 any_file (render W_slashes) = expected_result 1 any_file W_slashes.
Proof. exact fixed_repairs_witness. Qed.
Print Assumptions fixed_repairs_witnesses.

(* (b') refuted for the repaired scanner: fewer than p slashes in the path, but the stamp has slashes *)
Theorem fixed_slashes_condition_refuted : exists p filt d,
  well_formed_fixed_except CSlashes p d /\ scan_fixed p filt (render d) <> expected_result p filt d.
Proof. exists 1%nat, any_file, W_stamp_slash. exact fixed_slashes_condition_witness. Qed.
Print Assumptions fixed_slashes_condition_refuted.
