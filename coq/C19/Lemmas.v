From Coq Require String Ascii.
From V Require Import Base.Text Base.Lists C19.Model.
Open Scope N_scope.
Arguments N.add : simpl never.
Arguments N.sub : simpl never.
Arguments N.mul : simpl never.
Arguments N.ltb : simpl never.
Arguments N.leb : simpl never.
Arguments N.eqb : simpl never.

Definition head_fails (f : char -> bool) (t : text) : Prop :=
  match t with
  | [] => True
  | c :: _ => f c = false
  end.

Lemma take_drop_app f a b :
  Forall (fun c => f c = true) a -> head_fails f b ->
  take_while f (a ++ b) = a /\ drop_while f (a ++ b) = b.
Proof.
  intros Ha Hb. induction Ha as [|c a Hc Ha IH]; cbn [app take_while drop_while].
  - destruct b as [|c b]; cbn [take_while drop_while].
    + split; reflexivity.
    + cbn [head_fails] in Hb. rewrite Hb. split; reflexivity.
  - rewrite Hc. destruct IH as [IH1 IH2]. rewrite IH1, IH2. split; reflexivity.
Qed.

Lemma existsb_false_Forall {A} (f : A -> bool) t :
  existsb f t = false -> Forall (fun c => negb (f c) = true) t.
Proof.
  induction t as [|c t IH]; cbn [existsb]; intros H; constructor.
  - apply negb_true_iff. apply orb_false_iff in H. apply H.
  - apply IH. apply orb_false_iff in H. apply H.
Qed.

Lemma forallb_Forall {A} (t : A -> bool) (P : A -> Prop) l :
  (forall x, t x = true -> P x) -> forallb t l = true -> Forall P l.
Proof.
  intros H Hb. apply Forall_forall. intros x Hx. exact (H x (proj1 (forallb_forall t l) Hb x Hx)).
Qed.

Lemma existsb_eqb_text_In f fs : existsb (eqb_text f) fs = true <-> In f fs.
Proof.
  rewrite existsb_exists. split.
  - intros (x & Hx & He). apply eqb_text_spec in He. subst x. exact Hx.
  - intros H. exists f. split; [exact H|apply eqb_text_refl].
Qed.

Lemma digits_value_snoc ds d : digits_value (ds ++ [d]) = 10 * digits_value ds + (d - 48).
Proof. unfold digits_value. rewrite fold_left_app. reflexivity. Qed.

Lemma le_digits_value fuel : forall n, n < 2 ^ N.of_nat fuel -> digits_value (rev (le_digits fuel n)) = n.
Proof.
  induction fuel as [|fuel IH]; intros n Hn.
  - cbn in Hn. replace n with 0 by lia. reflexivity.
  - rewrite Nat2N.inj_succ, N.pow_succ_r' in Hn.
    cbn [le_digits rev]. rewrite digits_value_snoc, (N.add_comm 48), N.add_sub.
    pose proof (N.div_mod n 10 ltac:(discriminate)) as Hdm.
    destruct (N.eqb_spec (n / 10) 0) as [E|E].
    + rewrite E in Hdm. exact (eq_sym Hdm).
    + rewrite IH by (apply N.div_lt_upper_bound; lia). exact (eq_sym Hdm).
Qed.

Lemma size_nat_bound n : n < 2 ^ N.of_nat (N.size_nat n).
Proof.
  destruct n as [|q]; cbn [N.size_nat].
  - cbn. lia.
  - induction q as [q IH|q IH|]; cbn [Pos.size_nat].
    + rewrite Nat2N.inj_succ, N.pow_succ_r'. lia.
    + rewrite Nat2N.inj_succ, N.pow_succ_r'. lia.
    + cbn. lia.
Qed.

Lemma digits_value_num n : digits_value (num n) = n.
Proof.
  apply le_digits_value. pose proof (size_nat_bound n) as H.
  rewrite Nat2N.inj_succ, N.pow_succ_r'. lia.
Qed.

Lemma le_digits_all fuel : forall n, Forall (fun c => is_digit c = true) (le_digits fuel n).
Proof.
  induction fuel as [|fuel IH]; intros n; cbn [le_digits]; constructor.
  - unfold is_digit. apply andb_true_iff. split; apply N.leb_le.
    + apply N.le_add_r.
    + pose proof (N.mod_upper_bound n 10 ltac:(discriminate)) as Hm. lia.
  - destruct (n / 10 =? 0); [constructor|apply IH].
Qed.

Lemma num_all_digits n : Forall (fun c => is_digit c = true) (num n).
Proof. apply Forall_rev, le_digits_all. Qed.

Lemma num_nonempty n : num n <> [].
Proof.
  unfold num. cbn [le_digits rev]. apply not_eq_sym, app_cons_not_nil.
Qed.

Lemma starts_digit_num n t : starts_digit (num n ++ t) = true.
Proof.
  pose proof (num_all_digits n) as H. pose proof (num_nonempty n) as Hne.
  destruct (num n) as [|c r]; [contradiction|].
  exact (Forall_inv H).
Qed.

Lemma parse_u32_num n : n <= U32_MAX -> parse_u32 (num n) = Some n.
Proof.
  intros H. unfold parse_u32. rewrite digits_value_num.
  apply N.leb_le in H. rewrite H. reflexivity.
Qed.

Lemma digit_not_plus c : is_digit c = true -> c <> PLUS.
Proof.
  unfold is_digit, PLUS. intros H. apply andb_true_iff in H. destruct H as [H1 H2].
  apply N.leb_le in H1. lia.
Qed.

Lemma num_no_plus n : Forall (fun c => c <> PLUS) (num n).
Proof. exact (Forall_impl _ digit_not_plus (num_all_digits n)). Qed.

Lemma digits1_num n rest : head_fails is_digit rest -> digits1 (num n ++ rest) = Some (num n, rest).
Proof.
  intros Hr. unfold digits1.
  destruct (take_drop_app is_digit (num n) rest (num_all_digits n) Hr) as [-> ->].
  pose proof (num_nonempty n) as Hne. destruct (num n); [contradiction|reflexivity].
Qed.

(* what the count capture of a printed header is *)
Definition cnt_capture (omit : bool) (c : N) : option text :=
  if omit && (c =? 1) then None else Some (num c).

(* main.rs:170-173: the line count of a header, from capture 3 *)
Definition cnt_value (oc : option text) : option N :=
  match oc with
  | Some cs => parse_u32 cs
  | None => Some 1
  end.

Lemma cnt_value_capture omit c : c <= U32_MAX -> cnt_value (cnt_capture omit c) = Some c.
Proof.
  intros Hc. unfold cnt_capture. destruct (omit && (c =? 1)) eqn:E.
  - apply andb_true_iff in E. destruct E as [_ E]. apply N.eqb_eq in E. subst c. reflexivity.
  - apply parse_u32_num. exact Hc.
Qed.

Lemma show_cnt_head omit c rest : head_fails is_digit (show_cnt omit c ++ SP :: rest).
Proof. unfold show_cnt. destruct (omit && (c =? 1)); reflexivity. Qed.

Lemma opt_count_show omit c rest :
  opt_count (show_cnt omit c ++ SP :: rest) = (cnt_capture omit c, SP :: rest).
Proof.
  unfold show_cnt, cnt_capture. destruct (omit && (c =? 1)).
  - reflexivity.
  - cbn [app opt_count]. change (COMMA =? COMMA) with true. cbv iota.
    rewrite digits1_num by reflexivity. reflexivity.
Qed.

Lemma show_cnt_no_plus omit c : Forall (fun x => x <> PLUS) (show_cnt omit c).
Proof.
  unfold show_cnt. destruct (omit && (c =? 1)).
  - constructor.
  - constructor; [discriminate|apply num_no_plus].
Qed.

Lemma hunk_header_cur_none l : at2 l = false -> hunk_header_cur l = None.
Proof. intros H. unfold hunk_header_cur. rewrite H. reflexivity. Qed.

Lemma hunk_header_fixed_none l : at2 l = false -> hunk_header_fixed l = None.
Proof. intros H. unfold hunk_header_fixed. rewrite H. reflexivity. Qed.

Lemma body_shape_not_at l : body_shape l -> at2 l = false.
Proof.
  destruct l as [|c [|c2 l]]; cbn [body_shape at2]; intros H; try reflexivity.
  destruct H as [ -> | [ -> | [ -> | -> ]]]; reflexivity.
Qed.

Lemma last_plus_digits_none t : has_plus_digit t = false -> last_plus_digits t = None.
Proof.
  induction t as [|c t IH]; cbn [has_plus_digit last_plus_digits]; intros H.
  - reflexivity.
  - apply orb_false_iff in H. destruct H as [H1 H2]. rewrite (IH H2), H1. reflexivity.
Qed.

Lemma last_plus_digits_found pre r :
  starts_digit r = true -> has_plus_digit r = false -> last_plus_digits (pre ++ PLUS :: r) = Some r.
Proof.
  intros Hd Hn. apply last_plus_digits_none in Hn. induction pre as [|c pre IH]; cbn [app last_plus_digits].
  - rewrite Hn, Hd. reflexivity.
  - rewrite IH. reflexivity.
Qed.

Lemma has_plus_digit_app_noplus a b : Forall (fun c => c <> PLUS) a -> has_plus_digit (a ++ b) = has_plus_digit b.
Proof.
  intros Ha. induction Ha as [|c a Hc Ha IH]; cbn [app has_plus_digit].
  - reflexivity.
  - apply N.eqb_neq in Hc. rewrite Hc, IH. reflexivity.
Qed.

Definition sec_tail (h : hunk) : text := match section h with [] => [] | s => SP :: s end.
Definition hdr_tail (h : hunk) : text :=
  num (n_start h) ++ show_cnt (omit_n h) (n_cnt h) ++ SP :: AT :: AT :: sec_tail h.

Lemma render_hunk_header_split h :
  render_hunk_header h =
  AT :: AT :: (SP :: MINUS :: num (o_start h) ++ show_cnt (omit_o h) (o_cnt h) ++ [SP]) ++ PLUS :: hdr_tail h.
Proof.
  unfold render_hunk_header, hdr_tail, sec_tail. cbn [app].
  repeat rewrite <- app_assoc. cbn [app]. reflexivity.
Qed.

Lemma hunk_header_cur_render h :
  has_plus_digit (section h) = false ->
  hunk_header_cur (render_hunk_header h) = Some (num (n_start h), cnt_capture (omit_n h) (n_cnt h)).
Proof.
  intros Hs. rewrite render_hunk_header_split. unfold hunk_header_cur.
  change (at2 (AT :: AT :: ?x)) with true. cbv iota. cbn [skipn].
  rewrite last_plus_digits_found.
  - unfold hdr_tail.
    destruct (take_drop_app is_digit _ _ (num_all_digits (n_start h))
                (show_cnt_head (omit_n h) (n_cnt h) (AT :: AT :: sec_tail h))) as [H1 H2].
    rewrite H1, H2, opt_count_show. reflexivity.
  - apply starts_digit_num.
  - unfold hdr_tail. rewrite has_plus_digit_app_noplus by apply num_no_plus.
    rewrite has_plus_digit_app_noplus by apply show_cnt_no_plus.
    unfold sec_tail. destruct (section h); [reflexivity|exact Hs].
Qed.

Lemma expect_hit c t : expect c (c :: t) = Some t.
Proof. cbn [expect]. rewrite N.eqb_refl. reflexivity. Qed.

Lemma hunk_header_fixed_render h :
  hunk_header_fixed (render_hunk_header h) = Some (num (n_start h), cnt_capture (omit_n h) (n_cnt h)).
Proof.
  rewrite render_hunk_header_split. unfold hunk_header_fixed.
  change (at2 (AT :: AT :: ?x)) with true. cbv iota. cbn [skipn app].
  rewrite !expect_hit.
  rewrite <- !app_assoc. cbn [app].
  rewrite digits1_num by apply show_cnt_head.
  rewrite opt_count_show. cbn [snd].
  rewrite !expect_hit.
  unfold hdr_tail. rewrite digits1_num by apply show_cnt_head.
  rewrite opt_count_show. reflexivity.
Qed.

(* the specification's strip is diff_pattern's skip_groups written a second time under other names: the two
   are convertible *)
Lemma drop_component_after_slash t : drop_component t = after_slash t.
Proof. reflexivity. Qed.

Lemma strip_skip_groups p t : strip p t = skip_groups p t.
Proof. reflexivity. Qed.

Lemma after_slash_none t : no_slash t -> after_slash t = None.
Proof.
  unfold no_slash. induction t as [|c t IH]; cbn [after_slash existsb]; intros H.
  - reflexivity.
  - apply orb_false_iff in H. destruct H as [H1 H2]. rewrite H1. apply IH. exact H2.
Qed.

Lemma after_slash_app a b :
  after_slash (a ++ b) = match after_slash a with Some s => Some (s ++ b) | None => after_slash b end.
Proof.
  induction a as [|c a IH]; cbn [app after_slash].
  - reflexivity.
  - destruct (c =? SLASH); [reflexivity|exact IH].
Qed.

Lemma skip_groups_app p : forall a b, (skip_groups p a = None -> no_slash b) ->
  skip_groups p (a ++ b) = option_map (fun s => s ++ b) (skip_groups p a).
Proof.
  induction p as [|p IH]; intros a b H; cbn [skip_groups] in *.
  - reflexivity.
  - rewrite after_slash_app. destruct (after_slash a) as [a'|].
    + apply IH. exact H.
    + rewrite after_slash_none by exact (H eq_refl). reflexivity.
Qed.

Lemma take_nonws_app s stamp : no_ws s -> stamp_ok stamp -> take_nonws (s ++ stamp) = s.
Proof.
  intros Hs Hst. unfold take_nonws.
  apply (take_drop_app (fun c => negb (is_whitespace c)) s stamp).
  - apply existsb_false_Forall. exact Hs.
  - destruct stamp as [|c r]; cbn [head_fails stamp_ok] in *; [exact I|rewrite Hst; reflexivity].
Qed.

Lemma plus3ws_new_header f : plus3ws (render_new_header f) = true.
Proof. reflexivity. Qed.

Lemma match_file_header_render p f s :
  strip p (new_path f) = Some s -> no_ws s -> stamp_ok (new_stamp f) ->
  match_file_header p (render_new_header f) = Some s.
Proof.
  intros Hs Hws Hst. unfold match_file_header. rewrite plus3ws_new_header.
  unfold render_new_header. cbn [app skipn].
  rewrite strip_skip_groups in Hs. rewrite skip_groups_app by (rewrite Hs; discriminate).
  rewrite Hs. cbn [option_map]. rewrite take_nonws_app by assumption. reflexivity.
Qed.

Lemma match_file_header_render_none p f :
  strip p (new_path f) = None -> no_slash (new_stamp f) ->
  match_file_header p (render_new_header f) = None.
Proof.
  intros Hs Hst. unfold match_file_header. rewrite plus3ws_new_header.
  unfold render_new_header. cbn [app skipn].
  rewrite strip_skip_groups in Hs. rewrite skip_groups_app by (intros _; exact Hst). rewrite Hs. reflexivity.
Qed.

Lemma at2_not_plus3ws l : at2 l = true -> plus3ws l = false.
Proof.
  destruct l as [|a [|b [|c [|w l]]]]; cbn [at2 plus3ws]; try reflexivity.
  intros H. apply andb_true_iff in H. destruct H as [H _]. apply N.eqb_eq in H. subst a. reflexivity.
Qed.

Lemma match_file_header_none p l : plus3ws l = false -> match_file_header p l = None.
Proof. intros H. unfold match_file_header. rewrite H. reflexivity. Qed.

Lemma file_header_cur_none p l : plus3ws l = false -> file_header_cur p l = FhNone.
Proof. intros H. unfold file_header_cur. rewrite match_file_header_none by exact H. reflexivity. Qed.

Lemma file_header_fixed_none p l : plus3ws l = false -> file_header_fixed p l = FhNone.
Proof. intros H. unfold file_header_fixed. rewrite match_file_header_none by exact H. rewrite H. reflexivity. Qed.

Lemma set_insert_cases f fs :
  In f fs /\ set_insert f fs = fs \/ ~ In f fs /\ set_insert f fs = fs ++ [f].
Proof.
  unfold set_insert. destruct (existsb (eqb_text f) fs) eqn:E; [left|right]; (split; [|reflexivity]).
  - apply existsb_eqb_text_In. exact E.
  - intros H. apply existsb_eqb_text_In in H. rewrite H in E. discriminate E.
Qed.

Lemma set_insert_In f g fs : In g (set_insert f fs) <-> f = g \/ In g fs.
Proof.
  destruct (set_insert_cases f fs) as [[Hin ->]|[_ ->]].
  - split; [auto|]. intros [<-|H]; assumption.
  - rewrite in_app_iff. cbn [In]. tauto.
Qed.

Lemma set_insert_NoDup f fs : NoDup fs -> NoDup (set_insert f fs).
Proof.
  intros H. destruct (set_insert_cases f fs) as [[_ ->]|[Hn ->]]; [exact H|apply NoDup_snoc; assumption].
Qed.

Lemma add_files_app a b fs : add_files (a ++ b) fs = add_files b (add_files a fs).
Proof. unfold add_files. apply fold_left_app. Qed.

Lemma add_files_In rs : forall fs g, In g (add_files rs fs) <-> In g fs \/ In g (map rpath rs).
Proof.
  unfold add_files. induction rs as [|r rs IH]; intros fs g; cbn [fold_left map In].
  - tauto.
  - rewrite IH, set_insert_In. tauto.
Qed.

Lemma add_files_NoDup rs : forall fs, NoDup fs -> NoDup (add_files rs fs).
Proof.
  unfold add_files. induction rs as [|r rs IH]; intros fs H; cbn [fold_left].
  - exact H.
  - apply IH. apply set_insert_NoDup. exact H.
Qed.

Lemma file_set_spec rs : NoDup (file_set rs) /\ forall f, In f (file_set rs) <-> In f (map rpath rs).
Proof.
  unfold file_set. split.
  - apply add_files_NoDup. constructor.
  - intros f. rewrite add_files_In. cbn [In]. tauto.
Qed.

Lemma file_set_nonempty r rs : file_set (r :: rs) <> [].
Proof.
  intros E. destruct (proj2 (file_set_spec (r :: rs)) (rpath r)) as [_ H].
  rewrite E in H. apply H. left. reflexivity.
Qed.

Definition push (s : state) (out : list range) : state :=
  mkState (st_cur s) (add_files out (st_files s)) (st_ranges s ++ out).
Definition set_cur (c : option text) (s : state) : state := mkState c (st_files s) (st_ranges s).

Lemma push_nil s : push s [] = s.
Proof. destruct s as [c fs rs]. unfold push. cbn. rewrite app_nil_r. reflexivity. Qed.

Lemma push_push s a b : push (push s a) b = push s (a ++ b).
Proof. unfold push. cbn [st_cur st_files st_ranges]. rewrite add_files_app, app_assoc. reflexivity. Qed.

Lemma set_cur_same s : set_cur (st_cur s) s = s.
Proof. destruct s; reflexivity. Qed.

Section Loop.
Variable fh : text -> fh_event.
Variable hh : text -> option hunk_captures.
Variable filt : text -> bool.

(* main.rs:144-146: current_file after a line, and after some lines *)
Definition next_cur (cur : option text) (l : text) : option text :=
  match fh l with
  | FhFile f => Some f
  | FhReset => None
  | FhNone => cur
  end.
Definition cur_after (cur : option text) (ls : list text) : option text := fold_left next_cur ls cur.

Definition for_cur (cur : option text) (g : text -> list range) : list range :=
  match cur with
  | Some file => if filt file then g file else []
  | None => []
  end.

Lemma for_cur_nil cur g : (forall file, g file = []) -> for_cur cur g = [].
Proof. intros H. unfold for_cur. destruct cur as [file|]; [destruct (filt file)|]; auto. Qed.

Lemma for_cur_app cur g g' : for_cur cur (fun file => g file ++ g' file) = for_cur cur g ++ for_cur cur g'.
Proof. unfold for_cur. destruct cur as [file|]; [destruct (filt file)|]; reflexivity. Qed.

(* [hunk_expected file h] for a header that reads start a and count c *)
Definition header_ranges (a c : N) (file : text) : list range :=
  if c =? 0 then [] else [(file, a, a + c - 1)].

(* main.rs:148-184: what line l pushes when current_file, already updated, is cur *)
Definition line_out (cur : option text) (l : text) : res (list range) :=
  match cur with
  | Some file =>
      if filt file then
        match hh l with
        | Some (ds, oc) =>
            match parse_u32 ds, cnt_value oc with
            | Some a, Some c =>
                if c =? 0 then Ok [] else if U32_MAX <? a + c then Panic else Ok [(file, a, a + c - 1)]
            | _, _ => Panic
            end
        | None => Ok []
        end
      else Ok []
  | None => Ok []
  end.

Lemma step_eq s l :
  step fh hh filt s l = match line_out (next_cur (st_cur s) l) l with
                        | Ok out => Ok (set_cur (next_cur (st_cur s) l) (push s out))
                        | Panic => Panic
                        end.
Proof.
  unfold step. fold (next_cur (st_cur s) l). unfold line_out, cnt_value.
  destruct (next_cur (st_cur s) l) as [file|]; [|rewrite push_nil; reflexivity].
  destruct (filt file); cbn [negb]; [|rewrite push_nil; reflexivity].
  destruct (hh l) as [[ds oc]|]; [|rewrite push_nil; reflexivity].
  destruct (parse_u32 ds) as [a|]; [|reflexivity].
  destruct (match oc with Some cs => parse_u32 cs | None => Some 1 end) as [c|]; [|reflexivity].
  destruct (c =? 0); [rewrite push_nil; reflexivity|].
  destruct (U32_MAX <? a + c); reflexivity.
Qed.

Lemma line_out_nohh cur l : hh l = None -> line_out cur l = Ok [].
Proof. intros H. unfold line_out. rewrite H. destruct cur as [file|]; [destruct (filt file)|]; reflexivity. Qed.

Lemma line_out_header cur l ds oc a c :
  hh l = Some (ds, oc) -> parse_u32 ds = Some a -> cnt_value oc = Some c -> (c <> 0 -> a + c <= U32_MAX) ->
  line_out cur l = Ok (for_cur cur (header_ranges a c)).
Proof.
  intros Hh Ha Hc Hac. unfold line_out, for_cur, header_ranges. rewrite Hh, Ha, Hc.
  destruct cur as [file|]; [|reflexivity]. destruct (filt file); [|reflexivity].
  destruct (N.eqb_spec c 0) as [E|E]; [reflexivity|].
  apply Hac, N.ltb_ge in E. rewrite E. reflexivity.
Qed.

Lemma step_fh_none s l : fh l = FhNone ->
  step fh hh filt s l = match line_out (st_cur s) l with Ok out => Ok (push s out) | Panic => Panic end.
Proof.
  intros H. rewrite step_eq. unfold next_cur. rewrite H.
  destruct (line_out (st_cur s) l) as [out|]; [apply f_equal, (set_cur_same (push s out))|reflexivity].
Qed.

Lemma step_inert s l : fh l = FhNone -> hh l = None -> step fh hh filt s l = Ok s.
Proof. intros H1 H2. rewrite step_fh_none, line_out_nohh, push_nil by assumption. reflexivity. Qed.

Lemma scan_lines_app a : forall s b,
  scan_lines fh hh filt s (a ++ b) =
  match scan_lines fh hh filt s a with Ok s' => scan_lines fh hh filt s' b | Panic => Panic end.
Proof.
  induction a as [|l a IH]; intros s b; cbn [app scan_lines].
  - reflexivity.
  - destruct (step fh hh filt s l) as [s'|]; [apply IH|reflexivity].
Qed.

Definition app_res (a b : res (list range)) : res (list range) :=
  match a, b with
  | Ok o, Ok o' => Ok (o ++ o')
  | _, _ => Panic
  end.

Lemma app_res_assoc a b c : app_res a (app_res b c) = app_res (app_res a b) c.
Proof. destruct a, b, c; cbn [app_res]; [rewrite app_assoc|..]; reflexivity. Qed.

(* what the lines push, as a function of current_file and the lines alone *)
Fixpoint lines_out (cur : option text) (ls : list text) : res (list range) :=
  match ls with
  | [] => Ok []
  | l :: ls' => app_res (line_out (next_cur cur l) l) (lines_out (next_cur cur l) ls')
  end.

Lemma scan_lines_eq ls : forall s,
  scan_lines fh hh filt s ls = match lines_out (st_cur s) ls with
                               | Ok out => Ok (set_cur (cur_after (st_cur s) ls) (push s out))
                               | Panic => Panic
                               end.
Proof.
  induction ls as [|l ls IH]; intros s; cbn [scan_lines lines_out cur_after fold_left].
  - rewrite push_nil, set_cur_same. reflexivity.
  - rewrite step_eq. destruct (line_out (next_cur (st_cur s) l) l) as [o|]; [|reflexivity].
    rewrite IH. cbn [st_cur set_cur]. destruct (lines_out (next_cur (st_cur s) l) ls) as [o'|]; [|reflexivity].
    cbn [app_res]. rewrite <- push_push. reflexivity.
Qed.

Lemma lines_out_app a : forall cur b,
  lines_out cur (a ++ b) = app_res (lines_out cur a) (lines_out (cur_after cur a) b).
Proof.
  induction a as [|l a IH]; intros cur b; cbn [app lines_out].
  - change (cur_after cur []) with cur. destruct (lines_out cur b); reflexivity.
  - rewrite IH, app_res_assoc. reflexivity.
Qed.

Lemma lines_out_nohh ls : Forall (fun l => hh l = None) ls -> forall cur, lines_out cur ls = Ok [].
Proof.
  induction 1 as [|l ls Hl Hls IH]; intros cur; cbn [lines_out].
  - reflexivity.
  - rewrite line_out_nohh, IH by exact Hl. reflexivity.
Qed.

Lemma lines_out_inert ls : Forall (fun l => fh l = FhNone /\ hh l = None) ls ->
  forall cur rest, lines_out cur (ls ++ rest) = lines_out cur rest.
Proof.
  induction 1 as [|l ls [H1 H2] _ IH]; intros cur rest; cbn [app lines_out].
  - reflexivity.
  - unfold next_cur. rewrite H1, line_out_nohh, IH by exact H2. destruct (lines_out cur rest); reflexivity.
Qed.
End Loop.
Arguments line_out_header {hh} filt cur {l ds oc a c}.

Lemma scan_of_eq sc p filt ls :
  scan_of sc p filt ls = match lines_out (sc_fh sc p) (sc_hh sc) filt None ls with
                         | Ok out => Ok (file_set out, out)
                         | Panic => Panic
                         end.
Proof.
  unfold scan_of, scan_with. rewrite scan_lines_eq. cbn [st_cur].
  destruct (lines_out (sc_fh sc p) (sc_hh sc) filt None ls); reflexivity.
Qed.

Lemma scan_diff_files p filt ls fs rs : scan_diff p filt ls = Ok (fs, rs) ->
  fs = file_set rs /\ NoDup fs /\ forall f, In f fs <-> In f (map rpath rs).
Proof.
  unfold scan_diff. rewrite scan_of_eq.
  destruct (lines_out (sc_fh the_scanner p) (sc_hh the_scanner) filt None ls) as [out|]; [|discriminate].
  intros H. injection H as <- <-. split; [reflexivity|apply file_set_spec].
Qed.

Lemma scan_of_insert_inert sc p filt ls pre post :
  Forall (fun l => sc_fh sc p l = FhNone /\ sc_hh sc l = None) ls ->
  scan_of sc p filt (pre ++ ls ++ post) = scan_of sc p filt (pre ++ post).
Proof. intros H. rewrite !scan_of_eq, !(lines_out_app _ _ _ pre), lines_out_inert by exact H. reflexivity. Qed.

Lemma scan_diff_insert_inert p filt l pre post :
  sc_fh the_scanner p l = FhNone -> sc_hh the_scanner l = None ->
  scan_diff p filt (pre ++ l :: post) = scan_diff p filt (pre ++ post).
Proof.
  intros H1 H2.
  exact (scan_of_insert_inert the_scanner p filt [l] pre post (Forall_cons _ (conj H1 H2) (Forall_nil _))).
Qed.

(* All that the scan of a printed patch uses of the two patterns.  sec_ok: what the hunk pattern needs of the
   section text; reset_ok: for which files with fewer than p slashes in the post-image path the +++ line resets
   current_file. *)
Set Implicit Arguments.
Record scanner_ok (sc : scanner) (p : nat) (sec_ok : text -> Prop) (reset_ok : file_diff -> Prop) : Prop := {
  fh_none : forall l, plus3ws l = false -> sc_fh sc p l = FhNone;
  hh_none : forall l, at2 l = false -> sc_hh sc l = None;
  hh_render : forall h, sec_ok (section h) ->
    sc_hh sc (render_hunk_header h) = Some (num (n_start h), cnt_capture (omit_n h) (n_cnt h));
  fh_render : forall f s, strip p (new_path f) = Some s -> no_ws s -> stamp_ok (new_stamp f) ->
    sc_fh sc p (render_new_header f) = FhFile s;
  fh_render_reset : forall f, strip p (new_path f) = None -> reset_ok f ->
    sc_fh sc p (render_new_header f) = FhReset
}.
Unset Implicit Arguments.

Lemma current_ok p : scanner_ok current_code p (fun t => has_plus_digit t = false) (fun _ => False).
Proof.
  split; cbn [sc_fh sc_hh current_code].
  - apply file_header_cur_none.
  - apply hunk_header_cur_none.
  - apply hunk_header_cur_render.
  - intros f s Hs Hws Hst. unfold file_header_cur.
    rewrite (match_file_header_render p f s Hs Hws Hst). reflexivity.
  - intros f _ [].
Qed.

Lemma repaired_ok p sec_ok (reset_ok : file_diff -> Prop) :
  (forall f, reset_ok f -> no_slash (new_stamp f)) -> scanner_ok repaired p sec_ok reset_ok.
Proof.
  intros Hno. split; cbn [sc_fh sc_hh repaired].
  - apply file_header_fixed_none.
  - apply hunk_header_fixed_none.
  - intros h _. apply hunk_header_fixed_render.
  - intros f s Hs Hws Hst. unfold file_header_fixed.
    rewrite (match_file_header_render p f s Hs Hws Hst). reflexivity.
  - intros f Hs Hf. unfold file_header_fixed.
    rewrite (match_file_header_render_none p f Hs (Hno f Hf)). reflexivity.
Qed.

(* the_scanner is one of the two by definition; only the alternative for that one is well typed *)
Lemma the_scanner_ok p : scanner_ok the_scanner p (fun t => has_plus_digit t = false) (fun _ => False).
Proof.
  first [ exact (current_ok p)
        | exact (repaired_ok p _ (fun _ => False) (fun f => False_ind _)) ].
Qed.

Lemma all_zero_expected file hs : Forall (fun h => n_cnt h = 0) hs -> flat_map (hunk_expected file) hs = [].
Proof.
  induction 1 as [|h hs Hh Hhs IH]; cbn [flat_map].
  - reflexivity.
  - unfold hunk_expected at 1. rewrite Hh. rewrite IH. reflexivity.
Qed.

Section Generic.
Variable sc : scanner.
Variable p : nat.
Variable filt : text -> bool.
Variable sec_ok : text -> Prop.
Variable reset_ok : file_diff -> Prop.
Hypothesis G : scanner_ok sc p sec_ok reset_ok.

Lemma hh_some_fh_none l x : sc_hh sc l = Some x -> sc_fh sc p l = FhNone.
Proof.
  intros H. apply (fh_none G), at2_not_plus3ws. destruct (at2 l) eqn:E; [reflexivity|].
  rewrite (hh_none G l E) in H. discriminate H.
Qed.

Definition hunk_good (h : hunk) : Prop :=
  Forall body_shape (body h) /\ Forall (fun l => plus3ws l = false) (body h) /\ fits_u32 h /\ sec_ok (section h).

Lemma scan_hunks hs : Forall hunk_good hs -> forall cur,
  lines_out (sc_fh sc p) (sc_hh sc) filt cur (flat_map render_hunk hs) =
  Ok (for_cur filt cur (fun file => flat_map (hunk_expected file) hs)).
Proof.
  induction 1 as [|h hs (Hshape & Hbody & (Ha & Hc & Hac) & Hsec) _ IH]; intros cur; cbn [flat_map].
  - rewrite for_cur_nil by reflexivity. reflexivity.
  - unfold render_hunk. cbn [app lines_out]. unfold next_cur.
    rewrite (fh_none G (render_hunk_header h) eq_refl).
    rewrite (line_out_header filt cur (hh_render G h Hsec) (parse_u32_num _ Ha) (cnt_value_capture _ _ Hc) Hac).
    rewrite lines_out_inert, IH, for_cur_app; [reflexivity|]. apply Forall_and.
    + exact (Forall_impl _ (fh_none G) Hbody).
    + exact (Forall_impl _ (fun l Hl => hh_none G l (body_shape_not_at l Hl)) Hshape).
Qed.

(* holds_fixed serves as the part of the conditions that both scanners need ([holds_weaken]); the other two
   clauses are the scanner's own *)
Definition file_good (f : file_diff) : Prop :=
  (forall k, holds_fixed p k f)
  /\ Forall (fun h => sec_ok (section h)) (hunks f)
  /\ (strip p (new_path f) = None -> reset_ok f \/ all_zero f).

Lemma scan_file f : file_good f -> forall cur,
  lines_out (sc_fh sc p) (sc_hh sc) filt cur (render_file f) = Ok (file_expected p filt f).
Proof.
  intros (Hc & Hsec & Hnone) cur.
  assert (Forall hunk_good (hunks f)) as Hhunks.
  { apply Forall_and; [exact (Hc CShape)|]. apply Forall_and; [exact (Hc CBody)|].
    apply Forall_and; [exact (Hc CU32)|exact Hsec]. }
  unfold render_file. rewrite lines_out_app, lines_out_nohh by exact (Forall_impl _ (hh_none G) (Hc CPre)).
  cbn [app lines_out]. rewrite !line_out_nohh by (apply (hh_none G); reflexivity).
  rewrite scan_hunks by exact Hhunks. cbn [app app_res]. f_equal.
  (* the current file after the +++ line is the stripped path, or there is none, or, whatever it is, there is
     nothing to charge to it *)
  unfold file_expected. unfold next_cur at 1.
  destruct (strip p (new_path f)) as [sp|] eqn:Es.
  - rewrite (fh_render G f Es (Hc CPath sp Es) (Hc CStamp)). reflexivity.
  - destruct (Hnone eq_refl) as [Hr|Hz].
    + rewrite (fh_render_reset G f Es Hr). reflexivity.
    + apply for_cur_nil. intros file. apply all_zero_expected. exact Hz.
Qed.

Lemma scan_patch d : Forall file_good d -> forall cur,
  lines_out (sc_fh sc p) (sc_hh sc) filt cur (render d) = Ok (expected p filt d).
Proof.
  unfold render, expected. induction 1 as [|f d Hf Hd IH]; intros cur; cbn [flat_map].
  - reflexivity.
  - rewrite lines_out_app, scan_file, IH by exact Hf. reflexivity.
Qed.

(* C is [holds p] with current_code's sec_ok and reset_ok, [holds_fixed p] with those of repaired *)
Lemma scan_of_render (C : cond -> file_diff -> Prop) d :
  (forall f, (forall k, C k f) -> file_good f) -> (forall k, Forall (C k) d) ->
  scan_of sc p filt (render d) = Ok (file_set (expected p filt d), expected p filt d).
Proof.
  intros Hg H. rewrite scan_of_eq, scan_patch; [reflexivity|].
  apply Forall_forall. intros f Hf. apply Hg. intros k. exact (proj1 (Forall_forall _ _) (H k) f Hf).
Qed.
End Generic.
Arguments hh_some_fh_none {sc p sec_ok reset_ok} G {l x}.
Arguments scan_of_render {sc p} filt {sec_ok reset_ok} G C d.

Lemma holds_weaken p k f : holds p k f -> holds_fixed p k f.
Proof.
  intros Hk. destruct k; try exact Hk.
  - (* CSection *) exact I.
  - (* CSlashes *) intros Hn. right. destruct Hk as [Hs|Hz]; [contradiction|exact Hz].
Qed.

Lemma well_formed_weaken p d : well_formed p d -> well_formed_fixed p d.
Proof. intros H k. exact (Forall_impl _ (holds_weaken p k) (H k)). Qed.

Lemma well_formed_except_weaken x p d : well_formed_except x p d -> well_formed_fixed_except x p d.
Proof. intros H k Hk. exact (Forall_impl _ (holds_weaken p k) (H k Hk)). Qed.

Lemma file_good_cur p f : (forall k, holds p k f) ->
  file_good p (fun t => has_plus_digit t = false) (fun _ => False) f.
Proof.
  intros H. split; [|split].
  - intros k. exact (holds_weaken p k f (H k)).
  - exact (H CSection).
  - intros Hn. destruct (H CSlashes) as [Hs|Hz]; [contradiction|right; exact Hz].
Qed.

Lemma file_good_fixed p f : (forall k, holds_fixed p k f) ->
  file_good p (fun _ => True) (fun f => no_slash (new_stamp f)) f.
Proof.
  intros H. split; [exact H|split].
  - apply Forall_forall. intros h _. exact I.
  - exact (H CSlashes).
Qed.

Lemma scan_render_fixed p filt d : well_formed_fixed p d ->
  scan_fixed p filt (render d) = Ok (file_set (expected p filt d), expected p filt d).
Proof. exact (scan_of_render filt (repaired_ok p _ _ (fun f Hf => Hf)) (holds_fixed p) d (file_good_fixed p)). Qed.

Lemma scan_render_cur p filt d : well_formed p d ->
  scan p filt (render d) = Ok (file_set (expected p filt d), expected p filt d).
Proof. exact (scan_of_render filt (current_ok p) (holds p) d (file_good_cur p)). Qed.

Lemma scan_diff_render p filt d : well_formed p d ->
  scan_diff p filt (render d) = Ok (file_set (expected p filt d), expected p filt d).
Proof. exact (scan_of_render filt (the_scanner_ok p) (holds p) d (file_good_cur p)). Qed.

(* covers `--- old`, `diff --git ...`, `index ...`, `rename from ...`, context and removed lines *)
Lemma first_char_inert p c l : c <> PLUS -> c <> AT ->
  sc_fh the_scanner p (c :: l) = FhNone /\ sc_hh the_scanner (c :: l) = None.
Proof.
  intros Hp Ha. apply N.eqb_neq in Hp, Ha. split.
  - apply (fh_none (the_scanner_ok p)).
    destruct l as [|b [|c' [|w l]]]; cbn [plus3ws]; try reflexivity. rewrite Hp. reflexivity.
  - apply (hh_none (the_scanner_ok p)).
    destruct l as [|b l]; cbn [at2]; try reflexivity. rewrite Ha. reflexivity.
Qed.

Lemma zero_count_skipped_lemma p filt s l ds cs :
  sc_hh the_scanner l = Some (ds, Some cs) -> parse_u32 ds <> None -> parse_u32 cs = Some 0 ->
  step_diff p filt s l = Ok s.
Proof.
  intros Hhh Hds Hcs. destruct (parse_u32 ds) as [a|] eqn:Ea; [|contradiction]. unfold step_diff.
  rewrite step_fh_none by exact (hh_some_fh_none (the_scanner_ok p) Hhh).
  rewrite (line_out_header filt _ Hhh Ea Hcs) by (intros E; destruct (E eq_refl)).
  rewrite for_cur_nil, push_nil by reflexivity. reflexivity.
Qed.

Lemma missing_count_is_one_lemma p filt s l ds a file :
  sc_hh the_scanner l = Some (ds, None) -> parse_u32 ds = Some a -> a + 1 <= U32_MAX ->
  st_cur s = Some file -> filt file = true ->
  step_diff p filt s l =
  Ok (mkState (Some file) (set_insert file (st_files s)) (st_ranges s ++ [(file, a, a)])).
Proof.
  intros Hhh Hds Ha Hcur Hf. unfold step_diff.
  rewrite step_fh_none by exact (hh_some_fh_none (the_scanner_ok p) Hhh).
  rewrite (line_out_header filt _ (c := 1) Hhh Hds eq_refl (fun _ => Ha)).
  unfold push, for_cur, header_ranges. rewrite Hcur, Hf, N.add_sub. reflexivity.
Qed.

Lemma omitted_count_capture h :
  has_plus_digit (section h) = false -> omit_n h = true -> n_cnt h = 1 ->
  sc_hh the_scanner (render_hunk_header h) = Some (num (n_start h), None).
Proof.
  intros Hs Ho Hc. rewrite (hh_render (the_scanner_ok 0) h Hs).
  unfold cnt_capture. rewrite Ho, Hc. reflexivity.
Qed.

Lemma empty_runs_nothing_lemma r exec :
  fst r = [] \/ snd r = [] -> invocation r = None /\ run_rustfmt exec r = true.
Proof.
  intros H. assert (invocation r = None) as E.
  { unfold invocation. destruct H as [H|H]; rewrite H; [|destruct (fst r)]; reflexivity. }
  split; [exact E|]. unfold run_rustfmt. rewrite E. reflexivity.
Qed.

Lemma run_rustfmt_failure exec r inv :
  invocation r = Some inv -> exec inv <> Exited true -> run_rustfmt exec r = false.
Proof.
  intros Hi He. unfold run_rustfmt. rewrite Hi.
  destruct (exec inv) as [|[|]]; try reflexivity. exfalso. apply He. reflexivity.
Qed.

Lemma failure_propagates_lemma p filt exec ls r inv :
  scan_diff p filt ls = Ok r -> invocation r = Some inv -> exec inv <> Exited true ->
  run_rustfmt exec r = false /\ format_diff p filt exec ls = ExitErr.
Proof.
  intros Hs Hi He. pose proof (run_rustfmt_failure exec r inv Hi He) as E.
  split; [exact E|]. unfold format_diff. rewrite Hs, E. reflexivity.
Qed.

Lemma invocation_nonempty r : fst r <> [] -> snd r <> [] -> invocation r = Some r.
Proof.
  unfold invocation. destruct (fst r); [contradiction|]. destruct (snd r); [contradiction|]. reflexivity.
Qed.

Lemma format_diff_render_lemma p filt exec d : well_formed p d ->
  format_diff p filt exec (render d) =
  match expected p filt d with
  | [] => ExitOk
  | e => match exec (file_set e, e) with
         | Exited true => ExitOk
         | _ => ExitErr
         end
  end.
Proof.
  intros H. unfold format_diff. rewrite scan_diff_render by exact H.
  destruct (expected p filt d) as [|r rs] eqn:E.
  - reflexivity.
  - unfold run_rustfmt. rewrite invocation_nonempty.
    + destruct (exec (file_set (r :: rs), r :: rs)) as [|[|]]; reflexivity.
    + cbn [fst]. apply file_set_nonempty.
    + cbn [snd]. discriminate.
Qed.

Lemma scan_text_render_lemma p filt d : well_formed p d -> Forall line_clean (render d) ->
  scan_text p filt (unlines (render d)) = expected_result p filt d.
Proof.
  intros H Hc. unfold scan_text.
  rewrite <- (app_nil_r (unlines (render d))), str_lines_unlines, app_nil_r.
  - apply scan_diff_render. exact H.
  - exact (Forall_impl _ (fun l Hl => proj1 Hl) Hc).
  - (* the second half of line_clean is the body of Text.ends_no_cr *)
    exact (Forall_impl ends_no_cr (fun l Hl => proj2 Hl) Hc).
Qed.

Definition holdsb (p : nat) (k : cond) (f : file_diff) : bool :=
  match k with
  | CPre => forallb (fun l => negb (at2 l)) (preamble f)
  | CStamp => match new_stamp f with [] => true | c :: _ => is_whitespace c end
  | CPath => match strip p (new_path f) with Some s => negb (existsb is_whitespace s) | None => true end
  | CShape => forallb (fun h => forallb (fun l => match l with
                                                  | [] => true
                                                  | c :: _ => existsb (N.eqb c) [SP; PLUS; MINUS; BACKSLASH]
                                                  end) (body h)) (hunks f)
  | CBody => forallb (fun h => forallb (fun l => negb (plus3ws l)) (body h)) (hunks f)
  | CU32 => forallb (fun h => (n_start h <=? U32_MAX) && (n_cnt h <=? U32_MAX)
                              && ((n_cnt h =? 0) || (n_start h + n_cnt h <=? U32_MAX))) (hunks f)
  | CSection => forallb (fun h => negb (has_plus_digit (section h))) (hunks f)
  | CSlashes => match strip p (new_path f) with Some _ => true | None => forallb (fun h => n_cnt h =? 0) (hunks f) end
  end.

Lemma holdsb_ok p k f : holdsb p k f = true -> holds p k f.
Proof.
  destruct k; cbn [holdsb holds].
  - (* CPre *) apply forallb_Forall. intros l. apply negb_true_iff.
  - (* CStamp *) unfold stamp_ok. destruct (new_stamp f); [intros _; exact I|exact (fun H => H)].
  - (* CPath *) intros H s Hs. rewrite Hs in H. apply negb_true_iff. exact H.
  - (* CShape *) apply forallb_Forall. intros h. apply forallb_Forall. intros [|c l]; [intros _; exact I|].
    cbn [existsb body_shape]. rewrite orb_false_r, !orb_true_iff, !N.eqb_eq. tauto.
  - (* CBody *) apply forallb_Forall. intros h. apply forallb_Forall. intros l. apply negb_true_iff.
  - (* CU32 *) apply forallb_Forall. intros h. unfold fits_u32.
    rewrite !andb_true_iff, orb_true_iff, !N.leb_le, N.eqb_eq. tauto.
  - (* CSection *) apply forallb_Forall. intros h. apply negb_true_iff.
  - (* CSlashes *) destruct (strip p (new_path f)); intros H; [left; discriminate|right].
    exact (forallb_Forall _ _ _ (fun h => proj1 (N.eqb_eq _ _)) H).
Qed.

Definition conds : list cond := [CPre; CStamp; CPath; CShape; CBody; CU32; CSection; CSlashes].

Definition failing (p : nat) (d : patch) : list cond :=
  filter (fun k => negb (forallb (holdsb p k) d)) conds.

Lemma not_failing p d k : ~ In k (failing p d) -> Forall (holds p k) d.
Proof.
  intros Hk. apply (forallb_Forall (holdsb p k) _ d (holdsb_ok p k)).
  destruct (forallb (holdsb p k) d) eqn:E; [reflexivity|]. contradiction Hk.
  apply filter_In. rewrite E. split; [destruct k; cbn; tauto|reflexivity].
Qed.

Lemma wf_check p d : failing p d = [] -> well_formed p d.
Proof. intros E k. apply not_failing. rewrite E. intros []. Qed.

Lemma wf_except_check x p d : failing p d = [x] -> well_formed_except x p d.
Proof. intros E k Hk. apply not_failing. rewrite E. intros [H|[]]. exact (Hk (eq_sym H)). Qed.

Definition cond_eq_dec (a b : cond) : {a = b} + {a <> b}.
Proof. decide equality. Defined.

Lemma wf_fixed_check x p d : well_formed_except x p d -> Forall (holds_fixed p x) d -> well_formed_fixed p d.
Proof.
  intros H Hx k. destruct (cond_eq_dec k x) as [->|Hk]; [exact Hx|].
  exact (well_formed_except_weaken x p d H k Hk).
Qed.

Definition line_cleanb (l : text) : bool :=
  negb (existsb is_lf l) && match rev l with c :: _ => negb (is_cr c) | [] => true end.

Lemma line_cleanb_ok l : line_cleanb l = true -> line_clean l.
Proof.
  unfold line_cleanb, line_clean. rewrite andb_true_iff, negb_true_iff. intros [H1 H2]. split.
  - intros Hin. rewrite (proj2 (existsb_exists is_lf l) (ex_intro _ LF (conj Hin eq_refl))) in H1.
    discriminate H1.
  - destruct (rev l); [exact I|apply negb_true_iff; exact H2].
Qed.

Import String Ascii.
Open Scope string_scope.
Open Scope list_scope.

Definition T (s : string) : text := map N_of_ascii (list_ascii_of_string s).

Definition any_file : text -> bool := fun _ => true.

(* a hunk with an unremarkable pre-image *)
Definition hk (ns nc : N) (sec : string) (bd : list string) : hunk :=
  mkHunk 1 1 ns nc false false (T sec) (map T bd).
Definition fl (pre : list string) (oldp newp stamp : string) (hs : list hunk) : file_diff :=
  mkFile (map T pre) (T oldp) [] (T newp) (T stamp) hs.

(* CSection:  @@ -10,3 +12,4 @@ let y = x +1;   is read as line 1 *)
Definition W_section : patch := Eval vm_compute in
  [fl [] "a/src/x.rs" "b/src/x.rs" "" [mkHunk 10 3 12 4 false false (T "let y = x +1;") [T "+foo"]]].

Lemma section_condition_witness :
  well_formed_except CSection 1 W_section /\
  scan 1 any_file (render W_section) <> expected_result 1 any_file W_section.
Proof. split; [exact (wf_except_check CSection 1 W_section eq_refl)|vm_compute; discriminate]. Qed.

(* CSlashes:  -p1 and a path without slash: the hunk is charged to the previous file *)
Definition W_slashes : patch := Eval vm_compute in
  [fl [] "a/x.rs" "b/x.rs" "" [hk 1 2 "" ["+a"]];
   fl [] "y.rs" "y.rs" "" [hk 7 3 "" ["+b"]]].

Lemma slashes_condition_witness :
  well_formed_except CSlashes 1 W_slashes /\
  scan 1 any_file (render W_slashes) <> expected_result 1 any_file W_slashes.
Proof. split; [exact (wf_except_check CSlashes 1 W_slashes eq_refl)|vm_compute; discriminate]. Qed.

Definition needed (x : cond) (p : nat) (d : patch) : Prop :=
  well_formed_except x p d /\
  scan p any_file (render d) <> expected_result p any_file d /\
  scan_fixed p any_file (render d) <> expected_result p any_file d /\
  well_formed_fixed_except x p d.

Lemma needed_check x p d :
  failing p d = [x] ->
  scan p any_file (render d) <> expected_result p any_file d ->
  scan_fixed p any_file (render d) <> expected_result p any_file d -> needed x p d.
Proof.
  intros E H1 H2. pose proof (wf_except_check x p d E) as H.
  exact (conj H (conj H1 (conj H2 (well_formed_except_weaken x p d H)))).
Qed.

(* CPath: a path with a space is cut at the space *)
Definition W_path : patch := Eval vm_compute in [fl [] "a/my file.rs" "b/my file.rs" "" [hk 1 1 "" ["+a"]]].

Lemma path_condition_witness : needed CPath 1 W_path.
Proof. apply needed_check; [reflexivity|vm_compute; discriminate|vm_compute; discriminate]. Qed.

(* CStamp: something glued to the path *)
Definition W_stamp : patch := Eval vm_compute in [fl [] "x.rs" "x.rs" "~" [hk 1 1 "" ["+a"]]].

Lemma stamp_condition_witness : needed CStamp 0 W_stamp.
Proof. apply needed_check; [reflexivity|vm_compute; discriminate|vm_compute; discriminate]. Qed.

(* CPre: an extended header line that looks like a hunk header *)
Definition W_pre : patch := Eval vm_compute in
  [fl [] "a.rs" "a.rs" "" [hk 1 1 "" ["+a"]];
   fl ["@@ -0 +99 @@"] "b.rs" "b.rs" "" [hk 1 1 "" ["+b"]]].

Lemma pre_condition_witness : needed CPre 0 W_pre.
Proof. apply needed_check; [reflexivity|vm_compute; discriminate|vm_compute; discriminate]. Qed.

(* CShape: a body line that is not one *)
Definition W_shape : patch := Eval vm_compute in [fl [] "a.rs" "a.rs" "" [hk 1 1 "" ["@@ -1 +99 @@"]]].

Lemma shape_condition_witness : needed CShape 0 W_shape.
Proof. apply needed_check; [reflexivity|vm_compute; discriminate|vm_compute; discriminate]. Qed.

(* CBody: an added line with the text  ++ b/other.rs  : the next hunk goes to other.rs *)
Definition W_body : patch := Eval vm_compute in
  [fl [] "a/x.rs" "b/x.rs" "" [hk 1 2 "" ["+++ b/other.rs"]; hk 8 1 "" ["+z"]]].

Lemma body_condition_witness : needed CBody 1 W_body.
Proof. apply needed_check; [reflexivity|vm_compute; discriminate|vm_compute; discriminate]. Qed.

(* CU32: 4294967295 + 2 overflows: panic *)
Definition W_u32 : patch := Eval vm_compute in [fl [] "x.rs" "x.rs" "" [hk 4294967295 2 "" ["+a"; "+b"]]].

Lemma u32_condition_witness :
  well_formed_except CU32 0 W_u32 /\
  scan 0 any_file (render W_u32) = Panic /\
  scan_fixed 0 any_file (render W_u32) = Panic /\
  well_formed_fixed_except CU32 0 W_u32.
Proof.
  pose proof (wf_except_check CU32 0 W_u32 eq_refl) as H.
  split; [exact H|]. split; [vm_compute; reflexivity|].
  split; [vm_compute; reflexivity|exact (well_formed_except_weaken CU32 0 W_u32 H)].
Qed.

(* CSlashes of holds_fixed:  +++ x.rs TAB 2020/01/01  and -p1: the slash is found in the stamp *)
Definition W_stamp_slash : patch := Eval vm_compute in
  [fl [] "x.rs" "x.rs" (String (ascii_of_nat 9) "2020/01/01") [hk 1 3 "" ["+a"]]].

Lemma fixed_slashes_condition_witness :
  well_formed_fixed_except CSlashes 1 W_stamp_slash /\
  scan_fixed 1 any_file (render W_stamp_slash) <> expected_result 1 any_file W_stamp_slash.
Proof.
  split; [|vm_compute; discriminate].
  exact (well_formed_except_weaken CSlashes 1 W_stamp_slash (wf_except_check CSlashes 1 W_stamp_slash eq_refl)).
Qed.

Lemma fixed_repairs_witness :
  scan_fixed 1 any_file (render W_section) = expected_result 1 any_file W_section /\
  scan_fixed 1 any_file (render W_slashes) = expected_result 1 any_file W_slashes.
Proof. split; vm_compute; reflexivity. Qed.
