(* C04/Props.v — C04: "An item, statement, expression, field, variant, match arm or module carrying
   #[rustfmt::skip] (directly or via cfg_attr, or the deprecated rustfmt_skip), the arguments of a macro named by
   rustfmt::skip::macros ..., and an attribute named by rustfmt::skip::attributes appear in the output with their
   original bytes ...".  Theorems about the recognition of the marker and the scoping of the name lists; that every
   rewriter consults them is checked syntactically (Gen/SkipSites.v) and end to end (checks/c04.py). *)
From V Require Import Base.Text C04.Model C04.Lemmas.

(* recognised exactly for rustfmt::skip, rustfmt_skip, and cfg_attr(c, m) with exactly two arguments whose second
   is itself recognised — nested cfg_attr to any depth *)
Theorem is_skip_spec : forall m, is_skip m = true <-> IsSkip m.
Proof. exact is_skip_spec_lemma. Qed.
Print Assumptions is_skip_spec.

(* the name lists only grow: update / extend never un-skip a name; All is absorbing *)
Theorem ctx_update_spec : forall c o n, nc_skip (nc_update c o) n = nc_skip c n || nc_skip o n.
Proof. exact nc_update_skip. Qed.
Print Assumptions ctx_update_spec.

Theorem ctx_extend_spec : forall c l n, nc_skip (nc_extend c l) n = nc_skip c n || existsb (eqb_text n) l.
Proof. exact nc_extend_skip. Qed.
Print Assumptions ctx_extend_spec.

(* a name skipped on entry of an item stays skipped for everything inside it *)
Theorem ctx_monotone : forall t c c' n, In c' (visit c t) ->
  (nc_skip (sc_macros c) n = true -> nc_skip (sc_macros c') n = true) /\
  (nc_skip (sc_attributes c) n = true -> nc_skip (sc_attributes c') n = true).
Proof. exact ctx_monotone_lemma. Qed.
Print Assumptions ctx_monotone.

(* scoping: the contexts under which an item's subtree is visited do not depend on its siblings' own lists *)
Theorem ctx_scoped : forall c before after t before' after',
  nth_error (visit_siblings c (before ++ t :: after)) (length before) = Some (visit c t) /\
  nth_error (visit_siblings c (before' ++ t :: after')) (length before') = Some (visit c t).
Proof. exact ctx_scoped_lemma. Qed.
Print Assumptions ctx_scoped.
