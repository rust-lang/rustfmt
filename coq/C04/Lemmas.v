(* C04/Lemmas.v — proofs for C04: is_skip recognises exactly IsSkip; nc_skip of an updated or extended
   list is a disjunction, so along visit a context only grows (ctx_le, by induction on the item tree);
   visit_siblings is a map, so what an item is visited under does not depend on its siblings. *)
From V Require Import Base.Text C04.Model.

Inductive IsSkip : meta -> Prop :=
| sk_word : IsSkip (Word SKIP)
| sk_depr : IsSkip (Word DEPR_SKIP)
| sk_cfg : forall c m, IsSkip m -> IsSkip (MList CFG_ATTR [c; MItem m]).

Lemma is_skip_spec_lemma m : is_skip m = true <-> IsSkip m.
Proof.
  split.
  - revert m. fix IH 1. intros [p|p args|p]; cbn [is_skip]; intros H.
    + apply orb_true_iff in H. destruct H as [H|H]; apply eqb_text_spec in H; subst; constructor.
    + apply andb_true_iff in H. destruct H as [Hp Ha]. apply eqb_text_spec in Hp. subst p.
      destruct args as [|c [|a2 [|x rest]]]; try discriminate.
      destruct a2 as [m'|]; [|discriminate]. constructor. apply IH. exact Ha.
    + discriminate.
  - induction 1 as [| |c m H IH]; cbn [is_skip]; rewrite eqb_text_refl.
    + reflexivity.
    + apply orb_true_r.
    + exact IH.
Qed.

Lemma existsb_app_true {A} (f : A -> bool) a b : existsb f (a ++ b) = existsb f a || existsb f b.
Proof. apply existsb_app. Qed.

Lemma nc_update_skip c o n : nc_skip (nc_update c o) n = nc_skip c n || nc_skip o n.
Proof.
  destruct c as [|a], o as [|b]; cbn [nc_update nc_skip]; rewrite ?orb_true_r; try reflexivity.
  apply existsb_app.
Qed.
Lemma nc_extend_skip c l n : nc_skip (nc_extend c l) n = nc_skip c n || existsb (eqb_text n) l.
Proof. destruct c as [|a]; cbn [nc_extend nc_skip]; [reflexivity|apply existsb_app]. Qed.

Definition ctx_le (n : text) (c c' : skip_ctx) : Prop :=
  (nc_skip (sc_macros c) n = true -> nc_skip (sc_macros c') n = true) /\
  (nc_skip (sc_attributes c) n = true -> nc_skip (sc_attributes c') n = true).

Lemma ctx_le_trans n a b c : ctx_le n a b -> ctx_le n b c -> ctx_le n a c.
Proof.
  intros Hab Hbc. split; intros H; apply Hbc, Hab, H.
Qed.
Lemma ctx_le_update_with n c ms ats : ctx_le n c (sc_update_with c ms ats).
Proof.
  unfold ctx_le, sc_update_with. cbn [sc_macros sc_attributes]. rewrite !nc_extend_skip.
  split; intros ->; reflexivity.
Qed.

Lemma itree_ind' (P : itree -> Prop) :
  (forall ms ats children, Forall P children -> P (INode ms ats children)) -> forall t, P t.
Proof.
  intros H. fix IH 1. intros [ms ats children]. apply H.
  induction children as [|t rest IHr]; constructor; [apply IH|exact IHr].
Qed.

Lemma ctx_monotone_lemma t : forall c c' n, In c' (visit c t) -> ctx_le n c c'.
Proof.
  induction t as [ms ats children IH] using itree_ind'. intros c c' n Hin. cbn [visit] in Hin.
  destruct Hin as [<-|Hin]; [apply ctx_le_update_with|].
  apply in_flat_map in Hin as [ch [Hch Hin]]. rewrite Forall_forall in IH.
  exact (ctx_le_trans n _ _ _ (ctx_le_update_with n c ms ats) (IH ch Hch _ _ n Hin)).
Qed.

Lemma visit_siblings_nth c before t after :
  nth_error (visit_siblings c (before ++ t :: after)) (length before) = Some (visit c t).
Proof.
  apply map_nth_error. rewrite nth_error_app2, Nat.sub_diag by apply Nat.le_refl. reflexivity.
Qed.
Lemma ctx_scoped_lemma c before after t before' after' :
  nth_error (visit_siblings c (before ++ t :: after)) (length before) = Some (visit c t) /\
  nth_error (visit_siblings c (before' ++ t :: after')) (length before') = Some (visit c t).
Proof. exact (conj (visit_siblings_nth c before t after) (visit_siblings_nth c before' t after')). Qed.
