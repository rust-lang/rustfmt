(* C14/Props.v — C14: "Each file named on the command line is formatted with the options of the nearest
   rustfmt.toml / .rustfmt.toml at or above its directory (the dotted name winning in the same directory, then the
   home and user-config directories), replaced wholesale by --config-path when given, with `--config key=val` and
   dedicated flags overriding any file, and with unset options taking the defaults of the effective style edition
   (style_edition, else legacy version, else edition). The same option value has the same effect whether it comes
   from a file, from --config or from the API; deprecated aliases map to their successors; width limits derived
   from use_small_heuristics never exceed max_width; and the text printed by --print-config default/current
   re-parses to the same effective configuration."

   Notation: paths are lists of components (root = []); a parsed config file / the --config pairs are lists
   (option, value) with values encoded as N (see Model.v); [resolve nightly file cli] is the configuration that
   load_config builds once the file has been located; [effective c o] is what the getter of option o returns;
   [inl l] (Lemmas.v) is the command line that consists of the --config pairs l.
   [nightly] is the release channel of the build (the binary under test is a nightly build). *)
From V Require Import Base.Text C14.Model C14.Lemmas.
Open Scope N_scope.

(* ---------------- discovery ---------------- *)

(* "nearest ... at or above its directory, the dotted name winning in the same directory": whenever discovery from
   dir succeeds with a path and some ancestor-or-self d holds a config file while no deeper one does, the path is
   d/.rustfmt.toml if that is a file, else d/rustfmt.toml *)
Theorem nearest_wins : forall fs home cfgdir dir p,
  resolve_project_file fs home cfgdir dir = Ok (Some p) ->
  forall d rest, dir = d ++ rest -> has_cfg fs d = true ->
  (forall d' rest', dir = d' ++ rest' -> (length d < length d')%nat -> has_cfg fs d' = false) ->
  p = pick fs d.
Proof. exact nearest_wins_lemma. Qed.
Print Assumptions nearest_wins.

(* "then the home and user-config directories": without I/O errors the result is the first directory holding a
   config file in the list dir, parent, ..., root, home, config_dir/rustfmt; none if there is no such directory *)
Theorem fallback_order : forall fs home cfgdir dir,
  (exists n, fs dir = Some n /\ n <> IOErr) ->
  (forall d, In d (candidates home cfgdir dir) -> no_ioerr fs d) ->
  resolve_project_file fs home cfgdir dir
  = Ok (option_map (pick fs) (find (has_cfg fs) (candidates home cfgdir dir))).
Proof. exact fallback_order_lemma. Qed.
Print Assumptions fallback_order.

(* "replaced wholesale by --config-path": the result depends on the file system only through q, q/.rustfmt.toml
   and q/rustfmt.toml — not on the file's directory, the home or the config directory *)
Theorem override_wholesale : forall nightly fs1 fs2 home1 home2 cfg1 cfg2 fp1 fp2 o q,
  c_config_path o = Some q ->
  fs1 q = fs2 q ->
  fs1 (join q DOT_RUSTFMT_TOML) = fs2 (join q DOT_RUSTFMT_TOML) ->
  fs1 (join q RUSTFMT_TOML) = fs2 (join q RUSTFMT_TOML) ->
  load_config nightly fs1 home1 cfg1 fp1 o = load_config nightly fs2 home2 cfg2 fp2 o.
Proof. exact override_wholesale_lemma. Qed.
Print Assumptions override_wholesale.

(* a missing --config-path target is an error *)
Theorem config_path_missing_is_error : forall nightly fs home cfgdir fp o q,
  c_config_path o = Some q -> fs q = None ->
  load_config nightly fs home cfgdir fp o = Err E_NotFound.
Proof. exact config_path_missing_is_error_lemma. Qed.
Print Assumptions config_path_missing_is_error.

(* so is a --config-path directory without a config file (no search above it) *)
Theorem config_path_dir_without_file_is_error : forall nightly fs home cfgdir fp o q,
  c_config_path o = Some q -> fs q = Some Dir -> no_ioerr fs q -> has_cfg fs q = false ->
  load_config nightly fs home cfgdir fp o = Err E_NotFound.
Proof. exact config_path_dir_without_file_is_error_lemma. Qed.
Print Assumptions config_path_dir_without_file_is_error.

(* "each file named on the command line": without --config-path every file gets load_config of its own directory *)
Theorem per_file_config : forall nightly fs home cfgdir file_dir o,
  c_config_path o = None ->
  config_for_file nightly fs home cfgdir file_dir o = load_config nightly fs home cfgdir (Some file_dir) o.
Proof. exact per_file_config_lemma. Qed.
Print Assumptions per_file_config.

(* with --config-path every file gets the same configuration *)
Theorem config_path_same_for_all_files : forall nightly fs home cfgdir d1 d2 o q,
  c_config_path o = Some q ->
  config_for_file nightly fs home cfgdir d1 o = config_for_file nightly fs home cfgdir d2 o.
Proof. exact config_path_same_for_all_files_lemma. Qed.
Print Assumptions config_path_same_for_all_files.

(* "formatted with the options of" that file: the loaded configuration is [resolve] of the table of the chosen
   file (or of no file) *)
Theorem load_config_uses_found_file : forall nightly fs home cfgdir fp o c r,
  load_config nightly fs home cfgdir fp o = Ok (c, r) ->
  match r with
  | Some p => exists t, fs p = Some (File (Table t)) /\ table_ok t = true /\ c = resolve nightly (Some t) o
  | None => c = resolve nightly None o
  end.
Proof. exact load_config_uses_found_file_lemma. Qed.
Print Assumptions load_config_uses_found_file.

(* ---------------- precedence ---------------- *)

(* "--config key=val and dedicated flags overriding any file, unset options taking the defaults of the effective
   style edition": for every option without a derived rule (all but the eight widths, imports_granularity,
   fn_params_layout, show_parse_errors): --config, else dedicated flag, else file, else default of se_base *)
Theorem precedence : forall nightly f o x,
  nodup_opts (keys (c_inline o)) = true -> plain x = true ->
  effective (resolve nightly f o) x
  = match lookup (c_inline o) x with
    | Some v => v
    | None =>
        match flag_value o x with
        | Some v => v
        | None =>
            match file_view nightly (file_table f) x with
            | Some v => v
            | None => default (se_base o (file_table f)) x
            end
        end
    end.
Proof. exact precedence_lemma. Qed.
Print Assumptions precedence.

(* "style_edition, else legacy version, else edition": the style edition whose defaults are used; within each of
   the three, --config beats the flag beats the file; a file's style_edition beats a command-line version/edition *)
Theorem se_base_precedence : forall o t,
  se_base o t
  = match first_some [lookup (c_inline o) StyleEdition; c_style_edition o; lookup t StyleEdition] with
    | Some s => s
    | None =>
        match first_some [lookup (c_inline o) Version; lookup t Version] with
        | Some v => of_version v
        | None =>
            match first_some [lookup (c_inline o) Edition; c_edition o; lookup t Edition] with
            | Some e => e
            | None => SE2015
            end
        end
    end.
Proof. exact se_base_precedence_lemma. Qed.
Print Assumptions se_base_precedence.

(* the effective style_edition option: as above, except that a style edition obtained from `edition` is reported
   as 2015 (for 2015/2018/2021) or 2024 — the default of the style_edition option itself *)
Theorem se_precedence : forall t o,
  nodup_opts (keys (c_inline o)) = true ->
  effective (resolve true (Some t) o) StyleEdition
  = match first_some [lookup (c_inline o) StyleEdition; c_style_edition o; lookup t StyleEdition] with
    | Some s => s
    | None =>
        match first_some [lookup (c_inline o) Version; lookup t Version] with
        | Some v => of_version v
        | None =>
            match first_some [lookup (c_inline o) Edition; c_edition o; lookup t Edition] with
            | Some e => collapse e
            | None => SE2015
            end
        end
    end.
Proof. exact se_precedence_lemma. Qed.
Print Assumptions se_precedence.

(* "else edition", read literally, fails: --edition 2021 alone selects the 2021 defaults but style_edition reads 2015 *)
Theorem se_from_edition_gap :
  effective (resolve true None (mk_cli None (Some 2) None false None false None false [])) StyleEdition = SE2015 /\
  se_base (mk_cli None (Some 2) None false None false None false []) [] = SE2021.
Proof. exact se_from_edition_witness. Qed.
Print Assumptions se_from_edition_gap.

(* "overriding any file" fails for unstable_features the other way round: the file's value is always overwritten
   by apply_to (false unless --unstable-features), while --config unstable_features=true is honoured *)
Theorem unstable_features_file_ignored_gap :
  exists t : list (opt * N),
    table_ok t = true /\ lookup t UnstableFeatures = Some 1 /\
    effective (resolve true (Some t) no_cli) UnstableFeatures = 0 /\
    effective (resolve true None (inl [(UnstableFeatures, 1)])) UnstableFeatures = 1.
Proof. exact unstable_features_file_ignored_witness. Qed.
Print Assumptions unstable_features_file_ignored_gap.

(* ---------------- deprecated aliases ---------------- *)

(* "deprecated aliases map to their successors": merge_imports -> imports_granularity (true = Crate, false =
   Preserve), unless imports_granularity itself is given in --config or the file *)
Theorem alias_merge_imports : forall nightly f o,
  nodup_opts (keys (c_inline o)) = true ->
  effective (resolve nightly f o) ImportsGranularity
  = alias_spec (view_A nightly o (file_table f)) MergeImports ImportsGranularity conv_merge_imports G_PRESERVE.
Proof. exact (alias_lemma _ _ _ ap_mi). Qed.
Print Assumptions alias_merge_imports.

(* fn_args_layout -> fn_params_layout *)
Theorem alias_fn_args_layout : forall nightly f o,
  nodup_opts (keys (c_inline o)) = true ->
  effective (resolve nightly f o) FnParamsLayout
  = alias_spec (view_A nightly o (file_table f)) FnArgsLayout FnParamsLayout (fun v => v) 1.
Proof. exact (alias_lemma _ _ _ ap_fal). Qed.
Print Assumptions alias_fn_args_layout.

(* hide_parse_errors -> show_parse_errors: the value is COPIED (identity), not negated *)
Theorem alias_hide_parse_errors : forall nightly f o,
  nodup_opts (keys (c_inline o)) = true ->
  effective (resolve nightly f o) ShowParseErrors
  = alias_spec (view_A nightly o (file_table f)) HideParseErrors ShowParseErrors (fun v => v) 1.
Proof. exact (alias_lemma _ _ _ ap_hpe). Qed.
Print Assumptions alias_hide_parse_errors.

(* hence hide_parse_errors = true shows the errors and hide_parse_errors = false hides them *)
Theorem hide_parse_errors_not_negated_gap : forall nightly b,
  effective (resolve nightly None (inl [(HideParseErrors, b)])) ShowParseErrors = b /\
  effective (resolve true (Some [(HideParseErrors, b)]) no_cli) ShowParseErrors = b.
Proof. exact hide_parse_errors_not_negated_witness. Qed.
Print Assumptions hide_parse_errors_not_negated_gap.

(* ---------------- same value, different source ---------------- *)

(* "the same option value has the same effect whether it comes from a file [or] from --config": moving the pair
   (o, v) from the file to any position of the --config list leaves every effective value unchanged.
   Partial: o has no dedicated flag given, the build accepts (o, v) from a file, and max_width is not among the
   --config keys (in particular o is not max_width) — see the three refutations below *)
Theorem source_irrelevant_partial : forall nightly t cl l1 l2 o v,
  c_inline cl = l1 ++ l2 ->
  nodup_opts (keys (c_inline (set_inline cl (l1 ++ (o, v) :: l2)))) = true ->
  flag_value cl o = None ->
  is_stable_option_and_value nightly o v = true ->
  mem_opt MaxWidth (keys (c_inline (set_inline cl (l1 ++ (o, v) :: l2)))) = false ->
  forall x,
    effective (resolve nightly (Some ((o, v) :: t)) cl) x
    = effective (resolve nightly (Some t) (set_inline cl (l1 ++ (o, v) :: l2))) x.
Proof. exact source_irrelevant_lemma. Qed.
Print Assumptions source_irrelevant_partial.

(* max_width from --config instead of the file: an explicit width above the old max_width has already been clamped *)
Theorem source_irrelevant_max_width_refuted :
  exists (t : list (opt * N)) (v : N),
    lookup t MaxWidth = None /\
    effective (resolve true (Some ((MaxWidth, v) :: t)) no_cli) FnCallWidth = 150 /\
    effective (resolve true (Some t) (inl [(MaxWidth, v)])) FnCallWidth = 100.
Proof. exact source_irrelevant_max_width_witness. Qed.
Print Assumptions source_irrelevant_max_width_refuted.

(* the --config pairs are applied in HashMap iteration order: the same command line has two outcomes *)
Theorem config_order_gap :
  exists l1 l2 : list (opt * N),
    cli_ok (inl l1) = true /\ cli_ok (inl l2) = true /\ (forall x, lookup l1 x = lookup l2 x) /\
    effective (resolve true None (inl l1)) FnCallWidth = 150 /\
    effective (resolve true None (inl l2)) FnCallWidth = 100.
Proof. exact config_order_witness. Qed.
Print Assumptions config_order_gap.

(* on a stable build an unstable option is dropped from the file but accepted from --config *)
Theorem source_irrelevant_stable_channel_gap :
  effective (resolve false (Some [(ImportsGranularity, G_CRATE)]) no_cli) ImportsGranularity = G_PRESERVE /\
  effective (resolve false None (inl [(ImportsGranularity, G_CRATE)])) ImportsGranularity = G_CRATE.
Proof. exact source_irrelevant_stable_channel_witness. Qed.
Print Assumptions source_irrelevant_stable_channel_gap.

(* "... or from the API": config.set().o(v) and override_value(o, v) give the same effective values.
   Partial: o is not one of the eight widths nor a deprecated alias *)
Theorem source_irrelevant_api_partial : forall o v c x,
  is_width o = false -> o <> MergeImports -> o <> FnArgsLayout -> o <> HideParseErrors ->
  effective (setter o v c) x = effective (override_value o v c) x.
Proof. exact source_irrelevant_api_lemma. Qed.
Print Assumptions source_irrelevant_api_partial.

(* and override_value on a loaded configuration is one more --config pair applied last *)
Theorem override_is_config_last : forall nightly f o k v,
  k <> StyleEdition -> k <> Version -> k <> Edition ->
  override_value k v (resolve nightly f o) = resolve nightly f (set_inline o (c_inline o ++ [(k, v)])).
Proof. exact override_is_config_last_lemma. Qed.
Print Assumptions override_is_config_last.

(* the API setter does not mark the option as set: a width is reset to its heuristic value, a deprecated alias
   does not reach its successor; `version` reaches style_edition only through load_config *)
Theorem source_irrelevant_api_refuted :
  let d := default_with_style_edition SE2015 in
  effective (setter FnCallWidth 30 d) FnCallWidth = 60 /\
  effective (override_value FnCallWidth 30 d) FnCallWidth = 30 /\
  effective (setter MergeImports 1 d) ImportsGranularity = G_PRESERVE /\
  effective (override_value MergeImports 1 d) ImportsGranularity = G_CRATE /\
  effective (setter Version V_TWO d) StyleEdition = SE2015 /\
  effective (override_value Version V_TWO d) StyleEdition = SE2015 /\
  effective (resolve true None (inl [(Version, V_TWO)])) StyleEdition = SE2024.
Proof. exact source_irrelevant_api_witness. Qed.
Print Assumptions source_irrelevant_api_refuted.

(* ---------------- widths ---------------- *)

(* a width is marked as set iff it occurs in --config or (accepted) in the file *)
Theorem was_set_iff_given : forall nightly f o x,
  was_set (resolve nightly f o x)
  = mem_opt x (keys (c_inline o)) || is_some (file_view nightly (file_table f) x).
Proof. exact was_set_iff_given_lemma. Qed.
Print Assumptions was_set_iff_given.

(* an explicitly set width never exceeds max_width (any file, any command line, any order of the --config pairs) *)
Theorem explicit_width_clamped : forall nightly f o w,
  is_width w = true -> was_set (resolve nightly f o w) = true ->
  effective (resolve nightly f o) w <= effective (resolve nightly f o) MaxWidth.
Proof. exact explicit_width_clamped_lemma. Qed.
Print Assumptions explicit_width_clamped.

(* a width that was not set is the heuristic value for the effective use_small_heuristics and max_width *)
Theorem unset_width_heuristic : forall nightly f o w,
  is_width w = true -> was_set (resolve nightly f o w) = false ->
  effective (resolve nightly f o) w
  = heuristic_value (effective (resolve nightly f o) UseSmallHeuristics)
                    (effective (resolve nightly f o) MaxWidth) w.
Proof. exact unset_width_heuristic_lemma. Qed.
Print Assumptions unset_width_heuristic.

(* use_small_heuristics = Max: every unset width equals max_width *)
Theorem max_heuristics : forall nightly f o w,
  is_width w = true -> was_set (resolve nightly f o w) = false ->
  effective (resolve nightly f o) UseSmallHeuristics = H_MAX ->
  effective (resolve nightly f o) w = effective (resolve nightly f o) MaxWidth.
Proof. exact max_heuristics_lemma. Qed.
Print Assumptions max_heuristics.

(* use_small_heuristics = Default: an unset width is within max_width exactly when max_width is at least the
   width's default (60, 70, 18, 35, 60, 60, 50, 50): the defaults are scaled up above 100 but never down *)
Theorem scaled_le_max_iff : forall nightly f o w,
  is_width w = true -> was_set (resolve nightly f o w) = false ->
  effective (resolve nightly f o) UseSmallHeuristics = H_DEFAULT ->
  (effective (resolve nightly f o) w <= effective (resolve nightly f o) MaxWidth
   <-> default_width w <= effective (resolve nightly f o) MaxWidth).
Proof. exact scaled_le_max_iff_lemma. Qed.
Print Assumptions scaled_le_max_iff.

(* explicit widths: min(value, max_width), --config before file.
   Partial: max_width is not among the --config keys (else see config_order_gap) *)
Theorem width_precedence_partial : forall nightly f o w,
  nodup_opts (keys (c_inline o)) = true -> mem_opt MaxWidth (keys (c_inline o)) = false ->
  is_width w = true ->
  effective (resolve nightly f o) w
  = match view_A nightly o (file_table f) w with
    | Some v => N.min v (effective (resolve nightly f o) MaxWidth)
    | None => heuristic_value (effective (resolve nightly f o) UseSmallHeuristics)
                              (effective (resolve nightly f o) MaxWidth) w
    end.
Proof. exact width_precedence_lemma. Qed.
Print Assumptions width_precedence_partial.

(* "width limits derived from use_small_heuristics never exceed max_width" fails under Default below 70:
   --config max_width=50 leaves fn_call_width = 60 *)
Theorem derived_widths_le_max_refuted :
  exists (f : option (list (opt * N))) (o : cli) (w : opt),
    cli_ok o = true /\ is_width w = true /\
    effective (resolve true f o) UseSmallHeuristics = H_DEFAULT /\
    effective (resolve true f o) MaxWidth = 50 /\ effective (resolve true f o) w = 60.
Proof. exact derived_widths_le_max_witness. Qed.
Print Assumptions derived_widths_le_max_refuted.

(* and under Off: fn_call_width = usize::MAX with max_width = 100 *)
Theorem derived_widths_off_refuted :
  exists (f : option (list (opt * N))) (o : cli) (w : opt),
    cli_ok o = true /\ is_width w = true /\
    effective (resolve true f o) MaxWidth = 100 /\ effective (resolve true f o) w = 18446744073709551615.
Proof. exact derived_widths_off_witness. Qed.
Print Assumptions derived_widths_off_refuted.

(* ---------------- --print-config ---------------- *)

(* "the text printed by --print-config ... re-parses to the same effective configuration", for any configuration c
   whose printing succeeds. Partial: every width of c is at most its max_width, the build accepts the printed
   values from a file, and only for the options that are printed (merge_imports, fn_args_layout,
   hide_parse_errors are not) *)
Theorem print_config_roundtrip_partial : forall nightly c t,
  print_config c = Some t ->
  (forall w, is_width w = true -> val (c w) <= val (c MaxWidth)) ->
  (forall o, hidden o = false -> is_stable_option_and_value nightly o (val (c o)) = true) ->
  forall o, hidden o = false -> effective (reparse nightly t) o = effective c o.
Proof. exact print_config_roundtrip_lemma. Qed.
Print Assumptions print_config_roundtrip_partial.

(* the three options that are not printed come back as their defaults *)
Theorem print_config_hidden_default : forall nightly c t o,
  print_config c = Some t -> hidden o = true ->
  effective (reparse nightly t) o = default SE2015 o.
Proof. exact print_config_hidden_default_lemma. Qed.
Print Assumptions print_config_hidden_default.

(* --print-config current on a nightly build: holds for every loaded configuration whose heuristics are Max, or
   Default with max_width >= 70, and whose printing succeeds *)
Theorem print_config_current_roundtrip_partial : forall f o t,
  let c := resolve true f o in
  print_config c = Some t ->
  (effective c UseSmallHeuristics = H_MAX \/
   (effective c UseSmallHeuristics = H_DEFAULT /\ 70 <= effective c MaxWidth)) ->
  forall x, hidden x = false -> effective (reparse true t) x = effective c x.
Proof. exact print_config_current_roundtrip_lemma. Qed.
Print Assumptions print_config_current_roundtrip_partial.

(* --print-config default: holds, for every option *)
Theorem print_config_default_roundtrip : forall nightly,
  exists t, print_config_default = Some t /\
            forall o, effective (reparse nightly t) o = effective (default_with_style_edition SE2015) o.
Proof. exact print_config_default_roundtrip_lemma. Qed.
Print Assumptions print_config_default_roundtrip.

(* --print-config current with --config max_width=50: prints fn_call_width = 60, which re-parses to 50 *)
Theorem print_config_roundtrip_refuted :
  exists (o : cli) (t : list (opt * N)),
    cli_ok o = true /\ print_config (resolve true None o) = Some t /\ table_ok t = true /\
    effective (resolve true None o) FnCallWidth = 60 /\
    effective (reparse true t) FnCallWidth = 50 /\
    effective (resolve true (Some t) no_cli) FnCallWidth = 50.
Proof. exact print_config_roundtrip_witness. Qed.
Print Assumptions print_config_roundtrip_refuted.

(* --print-config current with use_small_heuristics = Off: nothing is printed (usize::MAX is not a TOML integer) *)
Theorem print_config_off_fails_refuted :
  print_config (resolve true None (inl [(UseSmallHeuristics, H_OFF)])) = None.
Proof. exact print_config_off_fails_witness. Qed.
Print Assumptions print_config_off_fails_refuted.
