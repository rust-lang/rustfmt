(* C14/Lemmas.v — proofs about configuration resolution.
   Discovery is shown equal to a search over the list of candidate directories. The option values are followed
   through the three stages of resolve (defaults filled from the file, dedicated flags, --config pairs) one entry at a
   time: every assignment is an update followed by the hook of its key, and a hook writes only the widths or the
   successor of its key, so an entry is determined by the requests made for it (and, for a width, by max_width and
   use_small_heuristics). *)
From V Require Import Base.Text C14.Model.
Open Scope N_scope.
Arguments N.add : simpl never.
Arguments N.sub : simpl never.
Arguments N.mul : simpl never.
Arguments N.ltb : simpl never.
Arguments N.leb : simpl never.
Arguments N.eqb : simpl never.
Arguments N.div : simpl never.

(* opt_id numbers the options by their position in all_opts *)
Lemma opt_id_nth : forall a, nth_error all_opts (N.to_nat (opt_id a)) = Some a.
Proof. intros a; destruct a; reflexivity. Qed.

Lemma opt_id_inj : forall a b, opt_id a = opt_id b -> a = b.
Proof.
  intros a b H. apply (f_equal (fun n => nth_error all_opts (N.to_nat n))) in H.
  rewrite !opt_id_nth in H. injection H as H; exact H.
Qed.

Lemma opt_eqb_eq : forall a b, opt_eqb a b = true <-> a = b.
Proof.
  intros a b; unfold opt_eqb; rewrite N.eqb_eq; split.
  - apply opt_id_inj.
  - intros ->; reflexivity.
Qed.

Lemma opt_eqb_spec : forall a b, reflect (a = b) (opt_eqb a b).
Proof. intros a b; apply iff_reflect; symmetry; apply opt_eqb_eq. Qed.

Lemma opt_eqb_refl : forall a, opt_eqb a a = true.
Proof. intros a; apply opt_eqb_eq; reflexivity. Qed.

Lemma opt_eqb_neq : forall a b, a <> b -> opt_eqb a b = false.
Proof. intros a b H; destruct (opt_eqb_spec a b); [contradiction | reflexivity]. Qed.

Lemma opt_eqb_sym : forall a b, opt_eqb a b = opt_eqb b a.
Proof. intros a b; unfold opt_eqb; apply N.eqb_sym. Qed.

Lemma upd_same : forall c o e, upd c o e o = e.
Proof. intros c o e; unfold upd; rewrite opt_eqb_refl; reflexivity. Qed.

Lemma upd_other : forall c o e x, x <> o -> upd c o e x = c x.
Proof. intros c o e x H; unfold upd; rewrite opt_eqb_neq by exact H; reflexivity. Qed.

Lemma lookup_cons : forall k v t x,
  lookup ((k, v) :: t) x = if opt_eqb k x then Some v else lookup t x.
Proof. reflexivity. Qed.

Lemma mem_opt_true : forall o l, mem_opt o l = true <-> In o l.
Proof.
  intros o l; induction l as [|x l IH]; cbn [mem_opt In].
  - split; [discriminate | tauto].
  - rewrite orb_true_iff, IH, opt_eqb_eq; tauto.
Qed.

Lemma lookup_none_iff : forall t x, lookup t x = None <-> mem_opt x (keys t) = false.
Proof.
  intros t x; induction t as [|[k v] t IH]; cbn [lookup keys map fst mem_opt].
  - tauto.
  - destruct (opt_eqb k x); [split; discriminate | exact IH].
Qed.

Lemma lookup_app : forall t1 t2 x, lookup (t1 ++ t2) x = or_else (lookup t1 x) (lookup t2 x).
Proof.
  intros t1 t2 x; induction t1 as [|[k v] t1 IH]; cbn [lookup app].
  - reflexivity.
  - destruct (opt_eqb k x); [reflexivity | exact IH].
Qed.

Lemma or_else_assoc : forall (A : Type) (a b c : option A), or_else (or_else a b) c = or_else a (or_else b c).
Proof. intros A [x|] b c; reflexivity. Qed.

Lemma or_else_none_r : forall (A : Type) (a : option A), or_else a None = a.
Proof. intros A [x|]; reflexivity. Qed.

Lemma mem_opt_app : forall o l1 l2, mem_opt o (l1 ++ l2) = mem_opt o l1 || mem_opt o l2.
Proof.
  intros o l1 l2; induction l1 as [|x l1 IH]; cbn [mem_opt app].
  - reflexivity.
  - rewrite IH, orb_assoc; reflexivity.
Qed.

Lemma nodup_opts_cons : forall x l,
  nodup_opts (x :: l) = true <-> mem_opt x l = false /\ nodup_opts l = true.
Proof. intros x l; cbn [nodup_opts]. rewrite andb_true_iff, negb_true_iff; reflexivity. Qed.

Lemma nodup_keys_cons : forall k (v : value) l,
  nodup_opts (keys ((k, v) :: l)) = true -> lookup l k = None /\ nodup_opts (keys l) = true.
Proof. intros k v l H; apply nodup_opts_cons in H. rewrite lookup_none_iff; exact H. Qed.

Lemma mem_opt_insert : forall y a x b, mem_opt y (a ++ x :: b) = opt_eqb x y || mem_opt y (a ++ b).
Proof.
  intros y a x b; rewrite !mem_opt_app; cbn [mem_opt]. destruct (mem_opt y a), (opt_eqb x y); reflexivity.
Qed.

Lemma nodup_opts_insert : forall a x b, nodup_opts (a ++ x :: b) = nodup_opts (x :: a ++ b).
Proof.
  induction a as [|y a IH]; intros x b; [reflexivity|].
  cbn [app nodup_opts mem_opt]. rewrite IH, mem_opt_insert, (opt_eqb_sym y x). cbn [nodup_opts].
  destruct (opt_eqb x y), (mem_opt y (a ++ b)), (mem_opt x (a ++ b)); reflexivity.
Qed.

Lemma keys_insert : forall l1 k (v : value) l2, keys (l1 ++ (k, v) :: l2) = keys l1 ++ k :: keys l2.
Proof. intros l1 k v l2; unfold keys; apply map_app. Qed.

Lemma nodup_opts_app : forall l1 l2,
  nodup_opts (l1 ++ l2) = true ->
  nodup_opts l1 = true /\ nodup_opts l2 = true /\ (forall o, mem_opt o l1 = true -> mem_opt o l2 = false).
Proof.
  induction l1 as [|x l1 IH]; intros l2 H; cbn [app] in H.
  - split; [reflexivity|]. split; [exact H|]. intros o Ho; discriminate Ho.
  - apply nodup_opts_cons in H; destruct H as [Hx Hn].
    rewrite mem_opt_app in Hx; apply orb_false_iff in Hx; destruct Hx as [Hx1 Hx2].
    destruct (IH l2 Hn) as [H1 [H2 H3]].
    split; [apply nodup_opts_cons; split; assumption|]. split; [exact H2|].
    intros o Ho; cbn [mem_opt] in Ho; apply orb_true_iff in Ho; destruct Ho as [Ho|Ho].
    + apply opt_eqb_eq in Ho; subst o; exact Hx2.
    + apply H3; exact Ho.
Qed.

(* each level of the discovery either answers according to which names are files, or fails at a node whose
   metadata cannot be read *)
Lemma probe_spec : forall fs p,
  match probe fs p with Ok b => b = is_file fs p | Err _ => fs p = Some IOErr end.
Proof. intros fs p; unfold probe, is_file; destruct (fs p) as [[c| |]|]; reflexivity. Qed.

Lemma get_toml_path_spec : forall fs d,
  match get_toml_path fs d with
  | Ok r => r = if has_cfg fs d then Some (pick fs d) else None
  | Err _ => ~ no_ioerr fs d
  end.
Proof.
  intros fs d; unfold get_toml_path, has_cfg, pick, no_ioerr.
  pose proof (probe_spec fs (join d DOT_RUSTFMT_TOML)) as P1.
  pose proof (probe_spec fs (join d RUSTFMT_TOML)) as P2.
  destruct (probe fs (join d DOT_RUSTFMT_TOML)) as [b1|e1]; [|intros [H _]; exact (H P1)].
  rewrite <- P1; destruct b1; [reflexivity|].
  destruct (probe fs (join d RUSTFMT_TOML)) as [b2|e2]; [|intros [_ H]; exact (H P2)].
  rewrite <- P2; destruct b2; reflexivity.
Qed.

(* probing a list of directories in order: the first config file found, or the first error *)
Fixpoint search (fs : fsys) (l : list path) : result (option path) :=
  match l with
  | [] => Ok None
  | d :: l' =>
      match get_toml_path fs d with
      | Err e => Err e
      | Ok (Some p) => Ok (Some p)
      | Ok None => search fs l'
      end
  end.

Lemma search_app : forall fs l1 l2,
  search fs (l1 ++ l2)
  = match search fs l1 with Err e => Err e | Ok (Some p) => Ok (Some p) | Ok None => search fs l2 end.
Proof.
  intros fs l1 l2; induction l1 as [|d l1 IH]; cbn [search app]; [reflexivity|].
  destruct (get_toml_path fs d) as [[p|]|e]; [reflexivity | exact IH | reflexivity].
Qed.

Lemma search_spec : forall fs l,
  match search fs l with
  | Ok r => r = option_map (pick fs) (find (has_cfg fs) l)
  | Err _ => ~ forall d, In d l -> no_ioerr fs d
  end.
Proof.
  intros fs l; induction l as [|d l IH]; cbn [search find]; [reflexivity|].
  pose proof (get_toml_path_spec fs d) as E.
  destruct (get_toml_path fs d) as [[p|]|e].
  - (* a file in d *) destruct (has_cfg fs d); [exact E | discriminate E].
  - (* none in d: the answer of the rest *) destruct (has_cfg fs d); [discriminate E|].
    destruct (search fs l); [exact IH|]. intros H; apply IH. intros d' Hd; apply H; right; exact Hd.
  - (* an error in d *) intros H; apply E, H; left; reflexivity.
Qed.

Lemma walk_up_search : forall fs rcur, walk_up fs rcur = search fs (ancestors_rev rcur).
Proof.
  intros fs rcur; induction rcur as [|x rcur IH]; cbn [walk_up ancestors_rev search];
    destruct (get_toml_path fs _) as [[p|]|e]; try reflexivity; exact IH.
Qed.

Lemma try_dir_search : forall fs d l, try_dir fs d (search fs l) = search fs (opt_list d ++ l).
Proof. intros fs [d|] l; reflexivity. Qed.

Lemma try_dir_last : forall fs d, try_dir fs d (Ok None) = search fs (opt_list d).
Proof. intros fs [d|]; reflexivity. Qed.

Lemma resolve_project_file_search : forall fs home cfgdir dir,
  resolve_project_file fs home cfgdir dir
  = match fs dir with
    | None => Err E_Canonicalize
    | Some IOErr => Err E_Io
    | Some _ => search fs (candidates home cfgdir dir)
    end.
Proof.
  intros fs home cfgdir dir; unfold resolve_project_file, candidates, ancestors.
  rewrite search_app, <- try_dir_search, <- try_dir_last, <- walk_up_search.
  destruct (fs dir) as [[c| |]|]; reflexivity.
Qed.

Lemma resolve_project_file_ok : forall fs home cfgdir dir r,
  resolve_project_file fs home cfgdir dir = Ok r ->
  r = option_map (pick fs) (find (has_cfg fs) (candidates home cfgdir dir)).
Proof.
  intros fs home cfgdir dir r; rewrite resolve_project_file_search.
  pose proof (search_spec fs (candidates home cfgdir dir)) as S.
  destruct (fs dir) as [[c| |]|]; try discriminate; intros H; rewrite H in S; exact S.
Qed.

Lemma fallback_order_lemma : forall fs home cfgdir dir,
  (exists n, fs dir = Some n /\ n <> IOErr) ->
  (forall d, In d (candidates home cfgdir dir) -> no_ioerr fs d) ->
  resolve_project_file fs home cfgdir dir
  = Ok (option_map (pick fs) (find (has_cfg fs) (candidates home cfgdir dir))).
Proof.
  intros fs home cfgdir dir [n [Hn1 Hn2]] Hc.
  rewrite resolve_project_file_search, Hn1.
  pose proof (search_spec fs (candidates home cfgdir dir)) as S.
  destruct (search fs (candidates home cfgdir dir)) as [r|e]; [subst r | contradiction (S Hc)].
  destruct n; [reflexivity | reflexivity | contradiction Hn2; reflexivity].
Qed.

Lemma ancestors_snoc : forall l x, ancestors (l ++ [x]) = (l ++ [x]) :: ancestors l.
Proof.
  intros l x; unfold ancestors. rewrite rev_unit. cbn [ancestors_rev rev]. rewrite rev_involutive. reflexivity.
Qed.

Lemma find_ancestors : forall (f : path -> bool) d rest l,
  f d = true ->
  (forall d' rest', d ++ rest = d' ++ rest' -> (length d < length d')%nat -> f d' = false) ->
  find f (ancestors (d ++ rest) ++ l) = Some d.
Proof.
  intros f d rest l Hd; induction rest as [|x rest IH] using rev_ind; intros Hn.
  - rewrite app_nil_r. unfold ancestors. destruct (rev d) eqn:E; cbn [ancestors_rev app find];
      rewrite <- E, rev_involutive, Hd; reflexivity.
  - rewrite app_assoc, ancestors_snoc. cbn [app find].
    rewrite (Hn ((d ++ rest) ++ [x]) []).
    + apply IH. intros d' rest' E L. apply (Hn d' (rest' ++ [x])); [|exact L].
      rewrite !app_assoc, E; reflexivity.
    + rewrite app_nil_r; apply app_assoc.
    + rewrite !app_length; cbn [length]; lia.
Qed.

Lemma nearest_wins_lemma : forall fs home cfgdir dir p,
  resolve_project_file fs home cfgdir dir = Ok (Some p) ->
  forall d rest, dir = d ++ rest -> has_cfg fs d = true ->
  (forall d' rest', dir = d' ++ rest' -> (length d < length d')%nat -> has_cfg fs d' = false) ->
  p = pick fs d.
Proof.
  intros fs home cfgdir dir p H d rest -> Hd Hn.
  apply resolve_project_file_ok in H. unfold candidates in H.
  rewrite (find_ancestors _ d rest _ Hd Hn) in H. inversion H; reflexivity.
Qed.

Lemma override_wholesale_lemma : forall nightly fs1 fs2 home1 home2 cfg1 cfg2 fp1 fp2 o q,
  c_config_path o = Some q ->
  fs1 q = fs2 q ->
  fs1 (join q DOT_RUSTFMT_TOML) = fs2 (join q DOT_RUSTFMT_TOML) ->
  fs1 (join q RUSTFMT_TOML) = fs2 (join q RUSTFMT_TOML) ->
  load_config nightly fs1 home1 cfg1 fp1 o = load_config nightly fs2 home2 cfg2 fp2 o.
Proof.
  intros nightly fs1 fs2 home1 home2 cfg1 cfg2 fp1 fp2 o q Hq H0 H1 H2.
  assert (G : get_toml_path fs1 q = get_toml_path fs2 q)
    by (unfold get_toml_path, probe; rewrite H1, H2; reflexivity).
  unfold load_config, config_path. rewrite Hq, H0, G.
  destruct (fs2 q) as [[c| |]|] eqn:Eq; try reflexivity.
  - unfold from_toml_path. rewrite H0, Eq. reflexivity.
  - (* the file chosen in the directory q is one of the two names *)
    pose proof (get_toml_path_spec fs2 q) as S.
    destruct (get_toml_path fs2 q) as [[p|]|e]; try reflexivity.
    replace (from_toml_path nightly fs1 p o) with (from_toml_path nightly fs2 p o); [reflexivity|].
    destruct (has_cfg fs2 q); inversion S. unfold from_toml_path, pick.
    destruct (is_file fs2 (join q DOT_RUSTFMT_TOML)); [rewrite H1 | rewrite H2]; reflexivity.
Qed.

Lemma config_path_missing_is_error_lemma : forall nightly fs home cfgdir fp o q,
  c_config_path o = Some q -> fs q = None ->
  load_config nightly fs home cfgdir fp o = Err E_NotFound.
Proof.
  intros nightly fs home cfgdir fp o q Hq Hn. unfold load_config, config_path. rewrite Hq, Hn. reflexivity.
Qed.

Lemma config_path_dir_without_file_is_error_lemma : forall nightly fs home cfgdir fp o q,
  c_config_path o = Some q -> fs q = Some Dir -> no_ioerr fs q -> has_cfg fs q = false ->
  load_config nightly fs home cfgdir fp o = Err E_NotFound.
Proof.
  intros nightly fs home cfgdir fp o q Hq Hd Hn Hc. unfold load_config, config_path. rewrite Hq, Hd.
  pose proof (get_toml_path_spec fs q) as S.
  destruct (get_toml_path fs q) as [r|e]; [subst r; rewrite Hc; reflexivity | contradiction (S Hn)].
Qed.

Lemma per_file_config_lemma : forall nightly fs home cfgdir file_dir o,
  c_config_path o = None ->
  config_for_file nightly fs home cfgdir file_dir o = load_config nightly fs home cfgdir (Some file_dir) o.
Proof.
  intros nightly fs home cfgdir file_dir o Hq. unfold config_for_file.
  unfold load_config at 1. unfold config_path. rewrite Hq. reflexivity.
Qed.

Lemma config_path_same_for_all_files_lemma : forall nightly fs home cfgdir d1 d2 o q,
  c_config_path o = Some q ->
  config_for_file nightly fs home cfgdir d1 o = config_for_file nightly fs home cfgdir d2 o.
Proof.
  intros nightly fs home cfgdir d1 d2 o q Hq. unfold config_for_file.
  destruct (load_config nightly fs home cfgdir None o) as [[c [p|]]|e]; try reflexivity.
  apply (override_wholesale_lemma _ _ _ _ _ _ _ _ _ _ q Hq); reflexivity.
Qed.

Lemma from_toml_path_ok : forall nightly fs p o c,
  from_toml_path nightly fs p o = Ok c ->
  exists t, fs p = Some (File (Table t)) /\ table_ok t = true /\
            c = to_parsed_config nightly t (cli_style_edition o) (cli_edition o) (cli_version o).
Proof.
  intros nightly fs p o c; unfold from_toml_path.
  destruct (fs p) as [[[t|]| |]|]; try discriminate.
  destruct (table_ok t) eqn:Et; [|discriminate].
  intros H; inversion H; exists t; auto.
Qed.

Lemma load_config_uses_found_file_lemma : forall nightly fs home cfgdir fp o c r,
  load_config nightly fs home cfgdir fp o = Ok (c, r) ->
  match r with
  | Some p => exists t, fs p = Some (File (Table t)) /\ table_ok t = true /\ c = resolve nightly (Some t) o
  | None => c = resolve nightly None o
  end.
Proof.
  intros nightly fs home cfgdir fp o c r; unfold load_config, resolve.
  destruct (config_path fs o) as [[p|]|e]; [| |discriminate].
  - destruct (from_toml_path nightly fs p o) as [c0|e] eqn:E; [|discriminate].
    apply from_toml_path_ok in E; destruct E as [t [H1 [H2 ->]]]. intros H; inversion H; exists t; auto.
  - destruct fp as [dir|].
    + destruct (resolve_project_file fs home cfgdir dir) as [[p|]|e]; [| |discriminate].
      * destruct (from_toml_path nightly fs p o) as [c0|e] eqn:E; [|discriminate].
        apply from_toml_path_ok in E; destruct E as [t [H1 [H2 ->]]]. intros H; inversion H; exists t; auto.
      * intros H; inversion H; reflexivity.
    + intros H; inversion H; reflexivity.
Qed.

Lemma set_alias_other : forall old new conv c o, o <> new -> set_alias old new conv c o = c o.
Proof.
  intros old new conv c o H; unfold set_alias.
  destruct (was_set (c old)); [|reflexivity].
  destruct (negb (was_set (c new))); [|reflexivity].
  apply upd_other; exact H.
Qed.

Lemma set_alias_new : forall old new conv c,
  set_alias old new conv c new
  = if was_set (c old) && negb (was_set (c new)) then set_val (c new) (conv (val (c old))) else c new.
Proof.
  intros old new conv c; unfold set_alias.
  destruct (was_set (c old)); cbn [andb]; [|reflexivity].
  destruct (negb (was_set (c new))); [apply upd_same | reflexivity].
Qed.

Lemma set_alias_ws : forall old new conv c o, was_set (set_alias old new conv c o) = was_set (c o).
Proof.
  intros old new conv c o. destruct (opt_eqb_spec o new) as [->|E].
  - rewrite set_alias_new. destruct (was_set (c old) && negb (was_set (c new))); reflexivity.
  - rewrite set_alias_other by exact E; reflexivity.
Qed.

Lemma set_heuristics_nonwidth : forall c o, is_width o = false -> set_heuristics c o = c o.
Proof. intros c o H; unfold set_heuristics, set_width_heuristics; rewrite H; reflexivity. Qed.

Lemma set_heuristics_width : forall c o, is_width o = true ->
  set_heuristics c o
  = set_val (c o) (get_width_value (val (c MaxWidth)) (was_set (c o)) (val (c o))
                     (heuristic_value (val (c UseSmallHeuristics)) (val (c MaxWidth)) o)).
Proof. intros c o H; unfold set_heuristics, set_width_heuristics; rewrite H; reflexivity. Qed.

Lemma set_heuristics_ws : forall c o, was_set (set_heuristics c o) = was_set (c o).
Proof.
  intros c o; destruct (is_width o) eqn:E.
  - rewrite set_heuristics_width by exact E; reflexivity.
  - rewrite set_heuristics_nonwidth by exact E; reflexivity.
Qed.

Lemma get_width_value_set_min : forall mw ov hv, get_width_value mw true ov hv = N.min ov mw.
Proof.
  intros mw ov hv; unfold get_width_value; cbn [negb].
  destruct (N.ltb_spec mw ov); lia.
Qed.

Lemma default_width_le : forall w, default_width w <= 70.
Proof. intros w; destruct w; vm_compute; discriminate. Qed.

Lemma wh_scaled_small : forall mw w, mw <= 100 -> wh_scaled mw w = default_width w.
Proof.
  intros mw w Hm; unfold wh_scaled, ratio10.
  destruct (N.ltb_spec 100 mw); [lia|].
  destruct w; vm_compute; reflexivity.
Qed.

Lemma wh_scaled_big_le : forall mw w, 100 < mw -> wh_scaled mw w <= mw.
Proof.
  (* default_width w * mw / 100 with two roundings and default_width w <= 70: at most 0.7 mw + 4 *)
  intros mw w Hm; unfold wh_scaled, ratio10, round_div.
  destruct (N.ltb_spec 100 mw); [|lia].
  set (r := (2 * (mw * 10) + 100) / (2 * 100)).
  assert (Hr : 2 * 100 * r <= 2 * (mw * 10) + 100) by (apply N.mul_div_le; lia).
  pose proof (default_width_le w) as Hd.
  set (q := (2 * (default_width w * r) + 10) / (2 * 10)).
  assert (Hq : 2 * 10 * q <= 2 * (default_width w * r) + 10) by (apply N.mul_div_le; lia).
  assert (Hdr : default_width w * r <= 70 * r) by (apply N.mul_le_mono_r; exact Hd).
  lia.
Qed.

Lemma scaled_le_iff : forall mw w, wh_scaled mw w <= mw <-> default_width w <= mw.
Proof.
  intros mw w. destruct (N.le_gt_cases mw 100) as [H|H].
  - rewrite wh_scaled_small by assumption. tauto.
  - pose proof (default_width_le w). split; intros _; [lia | apply wh_scaled_big_le; assumption].
Qed.

(* the keys whose hook is set_heuristics; these are also the entries that set_heuristics reads or writes *)
Definition hkey (o : opt) : bool := is_width o || opt_eqb o MaxWidth || opt_eqb o UseSmallHeuristics.

Lemma width_hkey : forall w, is_width w = true -> hkey w = true.
Proof. intros w H; unfold hkey; rewrite H; reflexivity. Qed.

(* a deprecated alias, its successor, and how the value is carried over *)
Inductive alias_pair : opt -> opt -> (value -> value) -> Prop :=
| ap_mi : alias_pair MergeImports ImportsGranularity conv_merge_imports
| ap_fal : alias_pair FnArgsLayout FnParamsLayout (fun v => v)
| ap_hpe : alias_pair HideParseErrors ShowParseErrors (fun v => v).

Lemma successor_not_plain_hkey : forall old new conv,
  alias_pair old new conv -> plain new = false /\ hkey new = false.
Proof. intros old new conv H; destruct H; split; reflexivity. Qed.

Lemma plain_not_width : forall o, plain o = true -> is_width o = false.
Proof. intros o; unfold plain; destruct (is_width o); [discriminate | reflexivity]. Qed.

Lemma opt_trichotomy : forall x, plain x = false -> is_width x = false -> exists old conv, alias_pair old x conv.
Proof. intros x Hp Hw; destruct x; try discriminate Hp; try discriminate Hw; eexists _, _; constructor. Qed.

Inductive hook_spec (k : opt) : (config -> config) -> Prop :=
| hook_heur : hkey k = true -> hook_spec k set_heuristics
| hook_alias : forall new conv, alias_pair k new conv -> hkey k = false -> hook_spec k (set_alias k new conv)
| hook_none : hkey k = false -> hook_spec k (fun c => c).

Lemma hookP : forall k, hook_spec k (hook k).
Proof.
  (* by the branch of hook that k selects: set_heuristics, a set_alias, or the identity *)
  intros k; destruct k;
    first [apply hook_heur; reflexivity | eapply hook_alias; [constructor | reflexivity] | apply hook_none; reflexivity].
Qed.

Lemma hook_ws : forall k c o, was_set (hook k c o) = was_set (c o).
Proof.
  intros k c o; destruct (hookP k); [apply set_heuristics_ws | apply set_alias_ws | reflexivity].
Qed.

(* a hook writes widths only when its key is in hkey, and otherwise only the successor of its key *)
Lemma hook_frame : forall k c x,
  (hkey k = true -> is_width x = false) -> (forall conv, ~ alias_pair k x conv) -> hook k c x = c x.
Proof.
  intros k c x Hw Ha; destruct (hookP k) as [Hk|new conv Hp _|Hk].
  - apply set_heuristics_nonwidth, Hw, Hk.
  - apply set_alias_other. intros ->; exact (Ha conv Hp).
  - reflexivity.
Qed.

Lemma hook_hkey : forall k c, hkey k = true -> hook k c = set_heuristics c.
Proof.
  intros k c H; destruct (hookP k) as [_|new conv _ Hk|Hk]; [reflexivity | rewrite H in Hk; discriminate Hk..].
Qed.

Lemma hook_plain : forall k c o, plain o = true -> hook k c o = c o.
Proof.
  intros k c o Hp; apply hook_frame.
  - intros _; apply plain_not_width, Hp.
  - intros conv Ha. rewrite (proj1 (successor_not_plain_hkey _ _ _ Ha)) in Hp; discriminate Hp.
Qed.

Lemma hook_not_hkey : forall k c o, hkey k = false -> hkey o = true -> hook k c o = c o.
Proof.
  intros k c o Hk Ho; apply hook_frame.
  - rewrite Hk; discriminate.
  - intros conv Ha. rewrite (proj2 (successor_not_plain_hkey _ _ _ Ha)) in Ho; discriminate Ho.
Qed.

(* setter, cli_setter and override_value all have the form hook k (upd c k e) *)
Lemma op_ws : forall k e c o,
  was_set (hook k (upd c k e) o) = if opt_eqb o k then was_set e else was_set (c o).
Proof. intros k e c o; rewrite hook_ws; unfold upd; destruct (opt_eqb o k); reflexivity. Qed.

Lemma op_plain : forall k e c o, plain o = true ->
  hook k (upd c k e) o = if opt_eqb o k then e else c o.
Proof. intros k e c o Hp; rewrite hook_plain by exact Hp; reflexivity. Qed.

Lemma op_key_new : forall old new conv, alias_pair old new conv ->
  forall e c, hook new (upd c new e) new = e.
Proof. intros old new conv H e c; destruct H; cbn [hook]; apply upd_same. Qed.

Lemma op_key_old : forall old new conv, alias_pair old new conv ->
  forall e c, hook old (upd c old e) new
  = if was_set e && negb (was_set (c new)) then set_val (c new) (conv (val e)) else c new.
Proof.
  intros old new conv H e c; destruct H; cbn [hook];
    unfold set_merge_imports, set_fn_args_layout, set_hide_parse_errors;
    rewrite set_alias_new, upd_same, upd_other by discriminate; reflexivity.
Qed.

Lemma op_key_other : forall old new conv, alias_pair old new conv ->
  forall k e c, k <> old -> k <> new -> hook k (upd c k e) new = c new.
Proof.
  intros old new conv H k e c H1 H2. rewrite hook_frame.
  - apply upd_other; intros E; apply H2; symmetry; exact E.
  - intros _; destruct H; reflexivity.
  - intros conv' H'; apply H1; destruct H; inversion H'; reflexivity.
Qed.

(* apply_flags assigns to each of these keys in turn the value of its flag, if any; hook is the identity on all six *)
Definition flag_keys : list opt := [UnstableFeatures; Edition; StyleEdition; EmitMode; MakeBackup; Color].

(* was_set_cli after the assignment: cli_setter sets it; only the absent --unstable-features goes through setter,
   which keeps it *)
Definition flag_cli (o : cli) (k : opt) (e : entry) : bool :=
  match k with UnstableFeatures => if c_unstable o then true else was_set_cli e | _ => true end.

Definition assign (o : cli) (c : config) (k : opt) : config :=
  match flag_value o k with
  | Some v => upd c k (mk_entry (was_set (c k)) v (flag_cli o k (c k)))
  | None => c
  end.

Definition flag_entry (o : cli) (x : opt) (e : entry) : entry :=
  match flag_value o x with Some v => mk_entry (was_set e) v (flag_cli o x e) | None => e end.

(* the four option-valued flags are matched in the same way on both sides; only the booleans need a case split *)
Lemma apply_flags_fold : forall o c, apply_flags o c = fold_left (assign o) flag_keys c.
Proof. intros [cp ed se ck em bk co un inl] c; destruct un, ck, bk; reflexivity. Qed.

Lemma assign_entry : forall o c k x, assign o c k x = if opt_eqb x k then flag_entry o x (c x) else c x.
Proof.
  intros o c k x; unfold assign, flag_entry. destruct (opt_eqb_spec x k) as [->|E]; destruct (flag_value o k);
    [apply upd_same | reflexivity | apply upd_other, E | reflexivity].
Qed.

Lemma fold_assign : forall o ks c x, nodup_opts ks = true ->
  fold_left (assign o) ks c x = if mem_opt x ks then flag_entry o x (c x) else c x.
Proof.
  intros o ks; induction ks as [|k ks IH]; intros c x Hn; [reflexivity|].
  apply nodup_opts_cons in Hn; destruct Hn as [Hk Hn].
  cbn [fold_left mem_opt]. rewrite (IH _ _ Hn), assign_entry, (opt_eqb_sym k x).
  destruct (opt_eqb_spec x k) as [->|E]; [rewrite Hk|]; reflexivity.
Qed.

Lemma apply_flags_entry : forall o c x, apply_flags o c x = flag_entry o x (c x).
Proof.
  intros o c x. rewrite apply_flags_fold, fold_assign by reflexivity.
  destruct x; reflexivity.
Qed.

Lemma apply_flags_ws : forall o c x, was_set (apply_flags o c x) = was_set (c x).
Proof. intros o c x; rewrite apply_flags_entry; unfold flag_entry; destruct (flag_value o x); reflexivity. Qed.

Lemma apply_flags_val : forall o c x,
  val (apply_flags o c x) = match flag_value o x with Some v => v | None => val (c x) end.
Proof. intros o c x; rewrite apply_flags_entry; unfold flag_entry; destruct (flag_value o x); reflexivity. Qed.

Lemma apply_flags_other : forall o c x, flag_value o x = None -> apply_flags o c x = c x.
Proof. intros o c x H; rewrite apply_flags_entry; unfold flag_entry; rewrite H; reflexivity. Qed.

(* closes a case whose hypothesis H : b = true has b computing to false *)
Ltac bdisc H := exfalso; vm_compute in H; discriminate H.

Lemma flag_value_hkey : forall o x, hkey x = true -> flag_value o x = None.
Proof. intros o x H; destruct x; try reflexivity; bdisc H. Qed.

Lemma apply_inline_cons : forall k v l c,
  apply_inline ((k, v) :: l) c = apply_inline l (override_value k v c).
Proof. reflexivity. Qed.

Lemma apply_inline_ws : forall l c o,
  was_set (apply_inline l c o) = mem_opt o (keys l) || was_set (c o).
Proof.
  induction l as [|[k v] l IH]; intros c o; [reflexivity|].
  rewrite apply_inline_cons, IH. unfold override_value; rewrite op_ws.
  cbn [keys map fst mem_opt was_set]. rewrite (opt_eqb_sym k o).
  destruct (opt_eqb o k); cbn [orb]; [apply orb_true_r | reflexivity].
Qed.

Lemma apply_inline_val_plain : forall l c o,
  nodup_opts (keys l) = true -> plain o = true ->
  val (apply_inline l c o) = match lookup l o with Some v => v | None => val (c o) end.
Proof.
  induction l as [|[k v] l IH]; intros c o Hn Hp; [reflexivity|].
  apply nodup_keys_cons in Hn; destruct Hn as [Hk Hn].
  rewrite apply_inline_cons, (IH _ _ Hn Hp), lookup_cons.
  unfold override_value; rewrite op_plain by exact Hp. rewrite (opt_eqb_sym k o).
  destruct (opt_eqb_spec o k) as [->|E]; [rewrite Hk|]; reflexivity.
Qed.

Lemma apply_inline_alias : forall old new conv, alias_pair old new conv ->
  forall l c, nodup_opts (keys l) = true ->
  val (apply_inline l c new)
  = match lookup l new with
    | Some v => v
    | None => if was_set (c new) then val (c new)
              else match lookup l old with Some b => conv b | None => val (c new) end
    end.
Proof.
  intros old new conv Hp l; induction l as [|[k v] l IH]; intros c Hn.
  - cbn [apply_inline fold_left lookup]. destruct (was_set (c new)); reflexivity.
  - apply nodup_keys_cons in Hn; destruct Hn as [Hk Hn].
    rewrite apply_inline_cons, (IH _ Hn), !lookup_cons. unfold override_value.
    destruct (opt_eqb_spec k new) as [->|E]; [|destruct (opt_eqb_spec k old) as [->|E']].
    + rewrite (op_key_new _ _ _ Hp), Hk. reflexivity.
    + rewrite (op_key_old _ _ _ Hp), Hk.
      cbn [was_set val andb]. destruct (lookup l new); [reflexivity|].
      destruct (was_set (c new)) eqn:Ew; cbn [negb set_val was_set val]; rewrite Ew; reflexivity.
    + rewrite (op_key_other _ _ _ Hp) by assumption. reflexivity.
Qed.

Lemma fill_values_default : forall nightly t b o,
  fill_values nightly t (default_with_style_edition b) o
  = match file_view nightly t o with
    | Some v => mk_entry true v false
    | None => mk_entry false (default b o) false
    end.
Proof.
  intros nightly t b o; unfold fill_values, file_view.
  destruct (lookup t o) as [v|]; [|reflexivity].
  destruct (is_stable_option_and_value nightly o v); reflexivity.
Qed.

(* fill_from_parsed_config (ffpc) runs five hooks over the filled values; seen from one entry, only the hook that
   writes it matters *)
Lemma ffpc_hooks : forall nightly t c,
  fill_from_parsed_config nightly t c
  = hook Version (hook HideParseErrors (hook FnArgsLayout (hook MergeImports
      (hook MaxWidth (fill_values nightly t c))))).
Proof. reflexivity. Qed.

Lemma ffpc_ws : forall nightly t c o,
  was_set (fill_from_parsed_config nightly t c o) = was_set (fill_values nightly t c o).
Proof. intros nightly t c o; rewrite ffpc_hooks, !hook_ws; reflexivity. Qed.

Lemma ffpc_plain : forall nightly t c o, plain o = true ->
  fill_from_parsed_config nightly t c o = fill_values nightly t c o.
Proof. intros nightly t c o Hp; rewrite ffpc_hooks, !hook_plain by exact Hp; reflexivity. Qed.

Lemma ffpc_width : forall nightly t c w, is_width w = true ->
  fill_from_parsed_config nightly t c w = set_heuristics (fill_values nightly t c) w.
Proof.
  intros nightly t c w Hw.
  rewrite ffpc_hooks, !hook_not_hkey by (reflexivity || apply width_hkey, Hw). reflexivity.
Qed.

Lemma ffpc_alias : forall old new conv, alias_pair old new conv ->
  forall nightly t c,
  fill_from_parsed_config nightly t c new
  = let fv := fill_values nightly t c in
    if was_set (fv old) && negb (was_set (fv new)) then set_val (fv new) (conv (val (fv old))) else fv new.
Proof.
  intros old new conv H nightly t c; cbv zeta.
  unfold fill_from_parsed_config, set_version, set_hide_parse_errors, set_fn_args_layout, set_merge_imports.
  (* at new: the step of its own alias; the other alias steps and set_heuristics pass old and new through *)
  destruct H;
    repeat first [rewrite set_alias_new
                 | rewrite set_alias_other by discriminate
                 | rewrite set_heuristics_nonwidth by reflexivity];
    reflexivity.
Qed.

(* invariant kept by every operation: an explicitly set width is at most max_width, an unset width is the
   value prescribed by use_small_heuristics for the current max_width *)
Definition WInv (c : config) : Prop :=
  forall w, is_width w = true ->
    (was_set (c w) = true -> val (c w) <= val (c MaxWidth)) /\
    (was_set (c w) = false ->
       val (c w) = heuristic_value (val (c UseSmallHeuristics)) (val (c MaxWidth)) w).

Lemma set_heuristics_WInv : forall c, WInv (set_heuristics c).
Proof.
  intros c w Hw.
  rewrite (set_heuristics_width c w Hw).
  rewrite (set_heuristics_nonwidth c MaxWidth), (set_heuristics_nonwidth c UseSmallHeuristics) by reflexivity.
  cbn [set_val was_set val]. split; intros Hs; rewrite Hs.
  - rewrite get_width_value_set_min. apply N.le_min_r.
  - reflexivity.
Qed.

Lemma WInv_frame : forall c c', (forall o, hkey o = true -> c' o = c o) -> WInv c -> WInv c'.
Proof.
  intros c c' H Hc w Hw.
  rewrite (H w), (H MaxWidth), (H UseSmallHeuristics) by (reflexivity || apply width_hkey, Hw).
  apply Hc; exact Hw.
Qed.

Lemma hook_WInv : forall k c, (hkey k = false -> WInv c) -> WInv (hook k c).
Proof.
  intros k c Hc. destruct (hkey k) eqn:Ek.
  - rewrite hook_hkey by exact Ek. apply set_heuristics_WInv.
  - apply (WInv_frame c); [|exact (Hc eq_refl)]. intros o Ho; apply hook_not_hkey; assumption.
Qed.

Lemma op_WInv : forall k e c, WInv c -> WInv (hook k (upd c k e)).
Proof.
  intros k e c Hc. apply hook_WInv; intros Ek. apply (WInv_frame c); [|exact Hc].
  intros o Ho. apply upd_other. intros E; subst o; rewrite Ek in Ho; discriminate Ho.
Qed.

Lemma apply_inline_WInv : forall l c, WInv c -> WInv (apply_inline l c).
Proof.
  induction l as [|[k v] l IH]; intros c Hc; [exact Hc|].
  rewrite apply_inline_cons. apply IH. unfold override_value. apply op_WInv; exact Hc.
Qed.

Lemma apply_flags_WInv : forall o c, WInv c -> WInv (apply_flags o c).
Proof.
  intros o c; apply WInv_frame. intros x Hx; apply apply_flags_other, flag_value_hkey, Hx.
Qed.

Lemma ffpc_WInv : forall nightly t c, WInv (fill_from_parsed_config nightly t c).
Proof.
  intros nightly t c; rewrite ffpc_hooks. do 4 (apply hook_WInv; intros _). apply set_heuristics_WInv.
Qed.

Lemma default_WInv : forall b, WInv (default_with_style_edition b).
Proof.
  intros b w Hw; split; intros Hs.
  - discriminate Hs.
  - destruct w; try (bdisc Hw); vm_compute; reflexivity.
Qed.

(* the explicit request r for a width w that a configuration reflects: w counts as set exactly when there is one,
   and then holds it clamped to max_width *)
Definition wreq (c : config) (w : opt) (r : option value) : Prop :=
  was_set (c w) = is_some r /\ forall v, r = Some v -> val (c w) = N.min v (val (c MaxWidth)).

Lemma apply_flags_wreq : forall o c w r, is_width w = true -> wreq c w r -> wreq (apply_flags o c) w r.
Proof.
  intros o c w r Hw H; unfold wreq.
  rewrite !apply_flags_other by (apply flag_value_hkey; (reflexivity || apply width_hkey, Hw)).
  exact H.
Qed.

Lemma override_width_self : forall w v c, is_width w = true ->
  override_value w v c w = mk_entry true (N.min v (val (c MaxWidth))) (was_set_cli (c w)).
Proof.
  intros w v c Hw; unfold override_value.
  rewrite hook_hkey by (apply width_hkey, Hw).
  rewrite set_heuristics_width, upd_same, upd_other by (exact Hw || (intros <-; discriminate Hw)).
  cbn [set_val was_set val was_set_cli]. rewrite get_width_value_set_min. reflexivity.
Qed.

(* one --config pair k=v, seen from the request for a width w: the pair for w itself replaces the request, any other
   pair except max_width leaves it as it is *)
Lemma override_wreq : forall w k v c r, is_width w = true -> k <> MaxWidth ->
  wreq c w r -> wreq (override_value k v c) w (if opt_eqb k w then Some v else r).
Proof.
  intros w k v c r Hw Hkm [Hs Hv]; unfold wreq.
  replace (val (override_value k v c MaxWidth)) with (val (c MaxWidth))
    by (unfold override_value; rewrite op_plain, opt_eqb_neq by (reflexivity || congruence); reflexivity).
  destruct (opt_eqb_spec k w) as [->|E]; [|destruct r as [v'|]].
  - rewrite override_width_self by exact Hw. split; [reflexivity|]. intros v' Hv'; inversion Hv'; reflexivity.
  - (* w holds a clamped value: set_heuristics computes it again *)
    replace (override_value k v c w) with (c w); [split; assumption|].
    unfold override_value. destruct (hkey k) eqn:Ek.
    + rewrite hook_hkey, set_heuristics_width, !(upd_other c k) by (assumption || congruence).
      rewrite Hs, get_width_value_set_min, N.min_l by (rewrite (Hv v' eq_refl); apply N.le_min_r).
      destruct (c w); reflexivity.
    + rewrite hook_not_hkey by (exact Ek || apply width_hkey, Hw). symmetry; apply upd_other; congruence.
  - split; [|discriminate]. unfold override_value. rewrite op_ws, opt_eqb_neq by congruence. exact Hs.
Qed.

Lemma apply_inline_wreq : forall w, is_width w = true ->
  forall l c r, nodup_opts (keys l) = true -> mem_opt MaxWidth (keys l) = false ->
  wreq c w r -> wreq (apply_inline l c) w (or_else (lookup l w) r).
Proof.
  intros w Hw l; induction l as [|[k v] l IH]; intros c r Hn Hm Hr; [exact Hr|].
  apply nodup_keys_cons in Hn; destruct Hn as [Hk Hn].
  cbn [keys map fst mem_opt] in Hm; apply orb_false_iff in Hm; destruct Hm as [Hkm Hm].
  apply (override_wreq w k v) in Hr; [|exact Hw | intros ->; rewrite opt_eqb_refl in Hkm; discriminate Hkm].
  apply (IH _ _ Hn Hm) in Hr. rewrite apply_inline_cons, lookup_cons.
  destruct (opt_eqb_spec k w) as [->|E]; [rewrite Hk in Hr|]; exact Hr.
Qed.

(* the configuration before the command line is applied: the defaults, filled from the file if there is one *)
Definition file_stage (nightly : bool) (f : option table) (c : config) : config :=
  match f with Some t => fill_from_parsed_config nightly t c | None => c end.

Lemma resolve_stages : forall nightly f o,
  resolve nightly f o
  = apply_inline (c_inline o)
      (apply_flags o (file_stage nightly f (default_with_style_edition (se_base o (file_table f))))).
Proof.
  intros nightly f o; unfold resolve, apply_to, to_parsed_config, default_for_possible_style_edition.
  unfold se_base, view_Sraw, cli_style_edition, cli_edition, cli_version; cbn [flag_value or_else].
  (* to_parsed_config nests the three sources to the left, view_Sraw to the right *)
  rewrite <- !or_else_assoc. destruct f as [t|]; cbn [file_stage file_table lookup]; [reflexivity|].
  rewrite !or_else_none_r; reflexivity.
Qed.

Section FileStage.
Variables (nightly : bool) (f : option table) (b : value).
Let c1 := file_stage nightly f (default_with_style_edition b).
Let fview := file_view nightly (file_table f).

Lemma file_stage_ws : forall x, was_set (c1 x) = is_some (fview x).
Proof.
  intros x; unfold c1, fview; destruct f as [t|]; [|reflexivity].
  cbn [file_stage file_table]. rewrite ffpc_ws, fill_values_default. destruct (file_view nightly t x); reflexivity.
Qed.

Lemma file_stage_plain : forall x, plain x = true ->
  val (c1 x) = match fview x with Some v => v | None => default b x end.
Proof.
  intros x Hp; unfold c1, fview; destruct f as [t|]; [|reflexivity].
  cbn [file_stage file_table]. rewrite ffpc_plain, fill_values_default by exact Hp.
  destruct (file_view nightly t x); reflexivity.
Qed.

Lemma file_stage_alias : forall old new conv, alias_pair old new conv ->
  val (c1 new) = alias_spec fview old new conv (default b new).
Proof.
  intros old new conv Hp; unfold c1, fview, alias_spec; destruct f as [t|]; [|reflexivity].
  cbn [file_stage file_table]. rewrite (ffpc_alias _ _ _ Hp); cbv zeta. rewrite !fill_values_default.
  destruct (file_view nightly t new), (file_view nightly t old); reflexivity.
Qed.

Lemma file_stage_wreq : forall w, is_width w = true -> wreq c1 w (fview w).
Proof.
  intros w Hw; split; [apply file_stage_ws|].
  unfold c1, fview; destruct f as [t|]; [|discriminate].
  cbn [file_stage file_table]; intros v Hv.
  rewrite (ffpc_plain _ _ _ MaxWidth), ffpc_width, set_heuristics_width by (exact Hw || reflexivity).
  rewrite (fill_values_default _ _ _ w), Hv. apply get_width_value_set_min.
Qed.
End FileStage.

Lemma resolve_WInv : forall nightly file o, WInv (resolve nightly file o).
Proof.
  intros nightly file o; rewrite resolve_stages. apply apply_inline_WInv, apply_flags_WInv.
  destruct file as [t|]; [apply ffpc_WInv | apply default_WInv].
Qed.

Lemma was_set_iff_given_lemma : forall nightly f o x,
  was_set (resolve nightly f o x)
  = mem_opt x (keys (c_inline o)) || is_some (file_view nightly (file_table f) x).
Proof.
  intros nightly f o x. rewrite resolve_stages, apply_inline_ws, apply_flags_ws, file_stage_ws; reflexivity.
Qed.

Lemma precedence_lemma : forall nightly f o x,
  nodup_opts (keys (c_inline o)) = true -> plain x = true ->
  effective (resolve nightly f o) x
  = match lookup (c_inline o) x with
    | Some v => v
    | None =>
        match flag_value o x with
        | Some v => v
        | None =>
            match file_view nightly (file_table f) x with
            | Some v => v
            | None => default (se_base o (file_table f)) x
            end
        end
    end.
Proof.
  intros nightly f o x Hn Hp; unfold effective.
  rewrite resolve_stages, apply_inline_val_plain, apply_flags_val, file_stage_plain by assumption. reflexivity.
Qed.

Lemma precedence_view_S : forall nightly f o x,
  nodup_opts (keys (c_inline o)) = true -> plain x = true ->
  effective (resolve nightly f o) x
  = match view_S nightly o (file_table f) x with Some v => v | None => default (se_base o (file_table f)) x end.
Proof.
  intros nightly f o x Hn Hp; rewrite precedence_lemma by assumption; unfold view_S.
  destruct (lookup (c_inline o) x), (flag_value o x); reflexivity.
Qed.

Lemma alias_lemma : forall old new conv, alias_pair old new conv ->
  forall nightly f o, nodup_opts (keys (c_inline o)) = true ->
  effective (resolve nightly f o) new
  = alias_spec (view_A nightly o (file_table f)) old new conv (default SE2015 new).
Proof.
  intros old new conv Hp nightly f o Hn; unfold effective.
  rewrite resolve_stages, (apply_inline_alias _ _ _ Hp) by exact Hn.
  rewrite apply_flags_other by (destruct Hp; reflexivity).
  rewrite file_stage_ws, (file_stage_alias _ _ _ _ _ _ Hp).
  replace (default (se_base o (file_table f)) new) with (default SE2015 new) by (destruct Hp; reflexivity).
  unfold alias_spec, view_A.
  destruct (lookup (c_inline o) new), (file_view nightly (file_table f) new), (lookup (c_inline o) old); reflexivity.
Qed.

Lemma explicit_width_clamped_lemma : forall nightly f o w,
  is_width w = true -> was_set (resolve nightly f o w) = true ->
  effective (resolve nightly f o) w <= effective (resolve nightly f o) MaxWidth.
Proof. intros nightly f o w Hw Hs. exact (proj1 (resolve_WInv nightly f o w Hw) Hs). Qed.

Lemma unset_width_heuristic_lemma : forall nightly f o w,
  is_width w = true -> was_set (resolve nightly f o w) = false ->
  effective (resolve nightly f o) w
  = heuristic_value (effective (resolve nightly f o) UseSmallHeuristics)
                    (effective (resolve nightly f o) MaxWidth) w.
Proof. intros nightly f o w Hw Hs. exact (proj2 (resolve_WInv nightly f o w Hw) Hs). Qed.

Lemma max_heuristics_lemma : forall nightly f o w,
  is_width w = true -> was_set (resolve nightly f o w) = false ->
  effective (resolve nightly f o) UseSmallHeuristics = H_MAX ->
  effective (resolve nightly f o) w = effective (resolve nightly f o) MaxWidth.
Proof.
  intros nightly f o w Hw Hs Hh. rewrite (unset_width_heuristic_lemma _ _ _ _ Hw Hs), Hh. reflexivity.
Qed.

Lemma off_heuristics_lemma : forall nightly f o w,
  is_width w = true -> was_set (resolve nightly f o w) = false ->
  effective (resolve nightly f o) UseSmallHeuristics = H_OFF ->
  effective (resolve nightly f o) w = wh_null w.
Proof.
  intros nightly f o w Hw Hs Hh. rewrite (unset_width_heuristic_lemma _ _ _ _ Hw Hs), Hh. reflexivity.
Qed.

Lemma scaled_le_max_iff_lemma : forall nightly f o w,
  is_width w = true -> was_set (resolve nightly f o w) = false ->
  effective (resolve nightly f o) UseSmallHeuristics = H_DEFAULT ->
  (effective (resolve nightly f o) w <= effective (resolve nightly f o) MaxWidth
   <-> default_width w <= effective (resolve nightly f o) MaxWidth).
Proof.
  intros nightly f o w Hw Hs Hh. rewrite (unset_width_heuristic_lemma _ _ _ _ Hw Hs), Hh.
  apply scaled_le_iff.
Qed.

Lemma width_precedence_lemma : forall nightly f o w,
  nodup_opts (keys (c_inline o)) = true -> mem_opt MaxWidth (keys (c_inline o)) = false ->
  is_width w = true ->
  effective (resolve nightly f o) w
  = match view_A nightly o (file_table f) w with
    | Some v => N.min v (effective (resolve nightly f o) MaxWidth)
    | None => heuristic_value (effective (resolve nightly f o) UseSmallHeuristics)
                              (effective (resolve nightly f o) MaxWidth) w
    end.
Proof.
  intros nightly f o w Hn Hm Hw.
  assert (H : wreq (resolve nightly f o) w (view_A nightly o (file_table f) w)).
  { rewrite resolve_stages. apply apply_inline_wreq; try assumption. apply apply_flags_wreq, file_stage_wreq; exact Hw. }
  destruct H as [Hs Hv]. destruct (view_A nightly o (file_table f) w) as [v|].
  - exact (Hv v eq_refl).
  - apply unset_width_heuristic_lemma; assumption.
Qed.

Lemma file_view_nightly : forall t x, file_view true t x = lookup t x.
Proof. intros t x; unfold file_view; destruct (lookup t x); reflexivity. Qed.

Lemma first_some_cons : forall a l, first_some (a :: l) = or_else a (first_some l).
Proof. intros [v|] l; reflexivity. Qed.

Lemma se_base_precedence_lemma : forall o t,
  se_base o t
  = match first_some [lookup (c_inline o) StyleEdition; c_style_edition o; lookup t StyleEdition] with
    | Some s => s
    | None =>
        match first_some [lookup (c_inline o) Version; lookup t Version] with
        | Some v => of_version v
        | None =>
            match first_some [lookup (c_inline o) Edition; c_edition o; lookup t Edition] with
            | Some e => e
            | None => SE2015
            end
        end
    end.
Proof.
  intros o t; rewrite !first_some_cons; cbn [first_some]; rewrite !or_else_none_r. reflexivity.
Qed.

Lemma se_precedence_lemma : forall t o,
  nodup_opts (keys (c_inline o)) = true ->
  effective (resolve true (Some t) o) StyleEdition
  = match first_some [lookup (c_inline o) StyleEdition; c_style_edition o; lookup t StyleEdition] with
    | Some s => s
    | None =>
        match first_some [lookup (c_inline o) Version; lookup t Version] with
        | Some v => of_version v
        | None =>
            match first_some [lookup (c_inline o) Edition; c_edition o; lookup t Edition] with
            | Some e => collapse e
            | None => SE2015
            end
        end
    end.
Proof.
  intros t o Hn. rewrite precedence_lemma by (exact Hn || reflexivity).
  cbn [file_table flag_value]. rewrite file_view_nightly.
  change (default (se_base o t) StyleEdition) with (collapse (se_base o t)). rewrite se_base_precedence_lemma.
  destruct (lookup (c_inline o) StyleEdition); [reflexivity|].
  destruct (c_style_edition o); [reflexivity|].
  destruct (lookup t StyleEdition); [reflexivity|]. change (first_some [None; None; None]) with (@None N).
  destruct (first_some [lookup (c_inline o) Version; lookup t Version]) as [v|].
  { unfold of_version; destruct (v =? V_TWO); reflexivity. }
  destruct (first_some [lookup (c_inline o) Edition; c_edition o; lookup t Edition]); reflexivity.
Qed.

(* the effective values depend on the file and the command line only through the three views of the specification
   (as long as --config does not repeat a key and leaves max_width alone): in particular neither the order of the
   --config pairs nor the source an accepted pair comes from matters *)
Lemma resolve_views : forall nightly f o f' o',
  nodup_opts (keys (c_inline o)) = true -> nodup_opts (keys (c_inline o')) = true ->
  mem_opt MaxWidth (keys (c_inline o)) = false -> mem_opt MaxWidth (keys (c_inline o')) = false ->
  (forall x, view_S nightly o (file_table f) x = view_S nightly o' (file_table f') x) ->
  (forall x, view_A nightly o (file_table f) x = view_A nightly o' (file_table f') x) ->
  se_base o (file_table f) = se_base o' (file_table f') ->
  forall x, effective (resolve nightly f o) x = effective (resolve nightly f' o') x.
Proof.
  intros nightly f o f' o' Hn Hn' Hm Hm' HS HA Hb x.
  assert (Hplain : forall y, plain y = true ->
            effective (resolve nightly f o) y = effective (resolve nightly f' o') y).
  { intros y Hy; rewrite !precedence_view_S, HS, Hb by assumption; reflexivity. }
  destruct (plain x) eqn:Hp; [apply Hplain, Hp|].
  destruct (is_width x) eqn:Hw.
  - rewrite !(width_precedence_lemma _ _ _ x), HA by assumption.
    rewrite (Hplain MaxWidth), (Hplain UseSmallHeuristics) by reflexivity. reflexivity.
  - destruct (opt_trichotomy x Hp Hw) as [old [conv Ha]].
    rewrite !(alias_lemma _ _ _ Ha) by assumption. unfold alias_spec; rewrite !HA; reflexivity.
Qed.

Lemma flag_value_set_inline : forall o l x, flag_value (set_inline o l) x = flag_value o x.
Proof. intros o l x; destruct x; reflexivity. Qed.

(* the pair (o, v) moved from the head of the file into the --config list *)
Section Move.
Variables (nightly : bool) (t : table) (cl : cli) (l1 l2 : table) (o : opt) (v : value).
Hypothesis Hinl : c_inline cl = l1 ++ l2.
Let cl' := set_inline cl (l1 ++ (o, v) :: l2).
Hypothesis Hnd : nodup_opts (keys (c_inline cl')) = true.
Hypothesis Hfl : flag_value cl o = None.
Hypothesis Hst : is_stable_option_and_value nightly o v = true.

Lemma move_nodup : nodup_opts (keys (c_inline cl)) = true /\ lookup (c_inline cl) o = None.
Proof.
  unfold cl' in Hnd; cbn [set_inline c_inline] in Hnd.
  rewrite keys_insert, nodup_opts_insert, nodup_opts_cons in Hnd.
  rewrite lookup_none_iff, Hinl; unfold keys; rewrite map_app. tauto.
Qed.

Lemma move_lookup : forall x,
  lookup (c_inline cl') x = if opt_eqb o x then Some v else lookup (c_inline cl) x.
Proof.
  intros x. destruct move_nodup as [_ Hno]. rewrite Hinl in *. unfold cl'; cbn [set_inline c_inline].
  rewrite !lookup_app, lookup_cons. rewrite lookup_app in Hno.
  destruct (opt_eqb_spec o x) as [<-|]; [|reflexivity].
  destruct (lookup l1 o); [discriminate Hno | reflexivity].
Qed.

(* each view is the --config entry, else a layer [fl] that has nothing for o, else the file *)
Lemma move_view : forall (fl ft : opt -> option value) x, fl o = None ->
  or_else (lookup (c_inline cl) x) (or_else (fl x) (if opt_eqb o x then Some v else ft x))
  = or_else (lookup (c_inline cl') x) (or_else (fl x) (ft x)).
Proof.
  intros fl ft x Hfo. rewrite move_lookup. destruct (opt_eqb_spec o x) as [<-|]; [|reflexivity].
  rewrite (proj2 move_nodup), Hfo. reflexivity.
Qed.

Lemma move_file_view : forall x,
  file_view nightly ((o, v) :: t) x = if opt_eqb o x then Some v else file_view nightly t x.
Proof.
  intros x; unfold file_view; rewrite lookup_cons. destruct (opt_eqb_spec o x) as [<-|]; [|reflexivity].
  rewrite Hst; reflexivity.
Qed.

Hypothesis Hnm : mem_opt MaxWidth (keys (c_inline cl')) = false.

Lemma source_irrelevant_lemma : forall x,
  effective (resolve nightly (Some ((o, v) :: t)) cl) x = effective (resolve nightly (Some t) cl') x.
Proof.
  apply resolve_views; cbn [file_table].
  - apply move_nodup.
  - exact Hnd.
  - unfold cl' in Hnm; cbn [set_inline c_inline] in Hnm.
    rewrite keys_insert, mem_opt_insert in Hnm. apply orb_false_iff in Hnm.
    rewrite Hinl; unfold keys; rewrite map_app. apply Hnm.
  - exact Hnm.
  - intros x; unfold view_S, cl'. rewrite move_file_view, flag_value_set_inline. apply move_view, Hfl.
  - intros x; unfold view_A. rewrite move_file_view. exact (move_view (fun _ => None) _ x eq_refl).
  - unfold se_base, view_Sraw, cl'. rewrite !flag_value_set_inline, !lookup_cons, !move_view by exact Hfl.
    reflexivity.
Qed.
End Move.

(* set_heuristics reads values, and the was_set flags of the widths only *)
Lemma set_heuristics_val_ext : forall c c',
  (forall y, val (c y) = val (c' y)) -> (forall w, is_width w = true -> was_set (c w) = was_set (c' w)) ->
  forall x, val (set_heuristics c x) = val (set_heuristics c' x).
Proof.
  intros c c' Hv Hs x; unfold set_heuristics, set_width_heuristics. rewrite !Hv.
  destruct (is_width x) eqn:E; [|apply Hv]. cbn [set_val val]. rewrite (Hs x E). reflexivity.
Qed.

Lemma source_irrelevant_api_lemma : forall o v c x,
  is_width o = false -> o <> MergeImports -> o <> FnArgsLayout -> o <> HideParseErrors ->
  effective (setter o v c) x = effective (override_value o v c) x.
Proof.
  intros o v c x Hw H1 H2 H3; unfold effective, setter, override_value.
  destruct (hookP o) as [_|new conv Ha _|_].
  - apply set_heuristics_val_ext.
    + intros y; unfold upd; destruct (opt_eqb y o); reflexivity.
    + intros w Hw'; rewrite !upd_other by (intros ->; rewrite Hw in Hw'; discriminate Hw'). reflexivity.
  - destruct Ha; contradiction.
  - unfold upd; destruct (opt_eqb x o); reflexivity.
Qed.

(* override_value on a loaded configuration = one more --config pair, applied last
   (except for the three options that also select the default set) *)
Lemma override_is_config_last_lemma : forall nightly f o k v,
  k <> StyleEdition -> k <> Version -> k <> Edition ->
  override_value k v (resolve nightly f o) = resolve nightly f (set_inline o (c_inline o ++ [(k, v)])).
Proof.
  intros nightly f o k v H1 H2 H3.
  unfold resolve, cli_style_edition, cli_version, cli_edition, apply_to, apply_inline.
  cbn [set_inline c_inline c_style_edition c_edition].
  rewrite !lookup_app, fold_left_app; cbn [lookup]. rewrite !opt_eqb_neq, !or_else_none_r by assumption.
  reflexivity.
Qed.

Lemma lookup_print : forall c t o,
  print_config c = Some t -> lookup t o = if hidden o then None else Some (val (c o)).
Proof.
  intros c t o; unfold print_config, to_toml.
  destruct (forallb _ _); [|discriminate].
  intros H; inversion H; subst t. destruct o; reflexivity.
Qed.

Lemma reparse_unfold : forall nightly t,
  reparse nightly t
  = file_stage nightly (Some t)
      (default_with_style_edition (base_style_edition (lookup t StyleEdition) (lookup t Version) (lookup t Edition))).
Proof. reflexivity. Qed.

Lemma print_config_roundtrip_lemma : forall nightly c t,
  print_config c = Some t ->
  (forall w, is_width w = true -> val (c w) <= val (c MaxWidth)) ->
  (forall o, hidden o = false -> is_stable_option_and_value nightly o (val (c o)) = true) ->
  forall o, hidden o = false -> effective (reparse nightly t) o = effective c o.
Proof.
  intros nightly c t Hp Hw Hst o Hh; unfold effective.
  assert (Hfv : forall x, hidden x = false -> file_view nightly t x = Some (val (c x))).
  { intros x Hx; unfold file_view. rewrite (lookup_print _ _ x Hp), Hx, (Hst x Hx). reflexivity. }
  rewrite reparse_unfold.
  destruct (plain o) eqn:Hpl; [|destruct (is_width o) eqn:Ew].
  - rewrite file_stage_plain by exact Hpl. cbn [file_table]. rewrite (Hfv o Hh). reflexivity.
  - rewrite (proj2 (file_stage_wreq nightly (Some t) _ o Ew) _ (Hfv o Hh)), file_stage_plain by reflexivity.
    cbn [file_table]. rewrite Hfv by reflexivity. apply N.min_l, Hw, Ew.
  - destruct (opt_trichotomy o Hpl Ew) as [old [conv Ha]].
    rewrite (file_stage_alias _ _ _ _ _ _ Ha). unfold alias_spec; cbn [file_table]. rewrite (Hfv o Hh). reflexivity.
Qed.

Lemma print_config_hidden_default_lemma : forall nightly c t o,
  print_config c = Some t -> hidden o = true ->
  effective (reparse nightly t) o = default SE2015 o.
Proof.
  intros nightly c t o Hp Hh; unfold effective. rewrite reparse_unfold.
  assert (Hpl : plain o = true) by (destruct o; try reflexivity; bdisc Hh).
  rewrite file_stage_plain by exact Hpl. cbn [file_table].
  unfold file_view. rewrite (lookup_print _ _ o Hp), Hh.
  destruct o; try (bdisc Hh); reflexivity.
Qed.

Lemma resolved_widths_le : forall nightly f o,
  let c := resolve nightly f o in
  (effective c UseSmallHeuristics = H_MAX \/
   (effective c UseSmallHeuristics = H_DEFAULT /\ 70 <= effective c MaxWidth)) ->
  forall w, is_width w = true -> val (c w) <= val (c MaxWidth).
Proof.
  intros nightly f o c Hh w Hw. unfold effective in Hh.
  destruct (resolve_WInv nightly f o w Hw) as [H1 H2]. fold c in H1, H2.
  destruct (was_set (c w)) eqn:Es; [apply H1; reflexivity|].
  rewrite (H2 eq_refl).
  destruct Hh as [Hh|[Hh Hm]]; rewrite Hh.
  - apply N.le_refl.
  - apply scaled_le_iff. pose proof (default_width_le w). lia.
Qed.

Lemma print_config_current_roundtrip_lemma : forall f o t,
  let c := resolve true f o in
  print_config c = Some t ->
  (effective c UseSmallHeuristics = H_MAX \/
   (effective c UseSmallHeuristics = H_DEFAULT /\ 70 <= effective c MaxWidth)) ->
  forall x, hidden x = false -> effective (reparse true t) x = effective c x.
Proof.
  intros f o t c Hp Hh x Hx.
  apply (print_config_roundtrip_lemma true c t Hp).
  - apply (resolved_widths_le true f o Hh).
  - intros y _; reflexivity.
  - exact Hx.
Qed.

Lemma print_config_default_roundtrip_lemma : forall nightly,
  exists t, print_config_default = Some t /\
            forall o, effective (reparse nightly t) o = effective (default_with_style_edition SE2015) o.
Proof.
  intros nightly. eexists; split; [vm_compute; reflexivity|].
  intros o; destruct o; destruct nightly; vm_compute; reflexivity.
Qed.

Definition inl (l : list (opt * N)) : cli := set_inline no_cli l.

(* --config max_width=50: fn_call_width stays 60 *)
Lemma derived_widths_le_max_witness :
  exists (f : option (list (opt * N))) (o : cli) (w : opt),
    cli_ok o = true /\ is_width w = true /\
    effective (resolve true f o) UseSmallHeuristics = H_DEFAULT /\
    effective (resolve true f o) MaxWidth = 50 /\ effective (resolve true f o) w = 60.
Proof. exists None, (inl [(MaxWidth, 50)]), FnCallWidth. vm_compute. repeat split; reflexivity. Qed.

(* --config use_small_heuristics=Off: fn_call_width = usize::MAX with max_width = 100 *)
Lemma derived_widths_off_witness :
  exists (f : option (list (opt * N))) (o : cli) (w : opt),
    cli_ok o = true /\ is_width w = true /\
    effective (resolve true f o) MaxWidth = 100 /\ effective (resolve true f o) w = 18446744073709551615.
Proof. exists None, (inl [(UseSmallHeuristics, H_OFF)]), FnCallWidth. vm_compute. repeat split; reflexivity. Qed.

(* the two iteration orders of the HashMap {max_width: 200, fn_call_width: 150} *)
Lemma config_order_witness :
  exists l1 l2 : list (opt * N),
    cli_ok (inl l1) = true /\ cli_ok (inl l2) = true /\ (forall x, lookup l1 x = lookup l2 x) /\
    effective (resolve true None (inl l1)) FnCallWidth = 150 /\
    effective (resolve true None (inl l2)) FnCallWidth = 100.
Proof.
  exists [(MaxWidth, 200); (FnCallWidth, 150)], [(FnCallWidth, 150); (MaxWidth, 200)].
  repeat split; try (vm_compute; reflexivity). intros x; destruct x; reflexivity.
Qed.

(* max_width = 200 with fn_call_width = 150 in the file: from the file 150, from --config 100 *)
Lemma source_irrelevant_max_width_witness :
  exists (t : list (opt * N)) (v : N),
    lookup t MaxWidth = None /\
    effective (resolve true (Some ((MaxWidth, v) :: t)) no_cli) FnCallWidth = 150 /\
    effective (resolve true (Some t) (inl [(MaxWidth, v)])) FnCallWidth = 100.
Proof. exists [(FnCallWidth, 150)], 200. vm_compute. repeat split; reflexivity. Qed.

(* unstable_features = true in the file, no --unstable-features flag *)
Lemma unstable_features_file_ignored_witness :
  exists t : list (opt * N),
    table_ok t = true /\ lookup t UnstableFeatures = Some 1 /\
    effective (resolve true (Some t) no_cli) UnstableFeatures = 0 /\
    effective (resolve true None (inl [(UnstableFeatures, 1)])) UnstableFeatures = 1.
Proof. exists [(UnstableFeatures, 1)]. vm_compute. repeat split; reflexivity. Qed.

(* hide_parse_errors = b gives show_parse_errors = b *)
Lemma hide_parse_errors_not_negated_witness : forall nightly b,
  effective (resolve nightly None (inl [(HideParseErrors, b)])) ShowParseErrors = b /\
  effective (resolve true (Some [(HideParseErrors, b)]) no_cli) ShowParseErrors = b.
Proof. intros nightly b; destruct nightly; vm_compute; split; reflexivity. Qed.

(* --edition 2021 alone: style_edition 2015 *)
Lemma se_from_edition_witness :
  effective (resolve true None (mk_cli None (Some 2) None false None false None false [])) StyleEdition = SE2015 /\
  se_base (mk_cli None (Some 2) None false None false None false []) [] = SE2021.
Proof. vm_compute; split; reflexivity. Qed.

(* API setter on a width that was not set: no effect; on merge_imports / version: successor unchanged *)
Lemma source_irrelevant_api_witness :
  let d := default_with_style_edition SE2015 in
  effective (setter FnCallWidth 30 d) FnCallWidth = 60 /\
  effective (override_value FnCallWidth 30 d) FnCallWidth = 30 /\
  effective (setter MergeImports 1 d) ImportsGranularity = G_PRESERVE /\
  effective (override_value MergeImports 1 d) ImportsGranularity = G_CRATE /\
  effective (setter Version V_TWO d) StyleEdition = SE2015 /\
  effective (override_value Version V_TWO d) StyleEdition = SE2015 /\
  effective (resolve true None (inl [(Version, V_TWO)])) StyleEdition = SE2024.
Proof. vm_compute. repeat split; reflexivity. Qed.

(* stable channel: an unstable option is ignored in the file but accepted from --config *)
Lemma source_irrelevant_stable_channel_witness :
  effective (resolve false (Some [(ImportsGranularity, G_CRATE)]) no_cli) ImportsGranularity = G_PRESERVE /\
  effective (resolve false None (inl [(ImportsGranularity, G_CRATE)])) ImportsGranularity = G_CRATE.
Proof. vm_compute; split; reflexivity. Qed.

(* --print-config current with max_width = 50: fn_call_width is printed as 60 and re-read as 50 *)
Lemma print_config_roundtrip_witness :
  exists (o : cli) (t : list (opt * N)),
    cli_ok o = true /\ print_config (resolve true None o) = Some t /\ table_ok t = true /\
    effective (resolve true None o) FnCallWidth = 60 /\
    effective (reparse true t) FnCallWidth = 50 /\
    effective (resolve true (Some t) no_cli) FnCallWidth = 50.
Proof.
  exists (inl [(MaxWidth, 50)]).
  destruct (print_config (resolve true None (inl [(MaxWidth, 50)]))) as [t|] eqn:E; [|vm_compute in E; discriminate E].
  exists t. vm_compute in E. inversion E; subst t. vm_compute. repeat split; reflexivity.
Qed.

(* --print-config current with use_small_heuristics = Off: serialisation fails *)
Lemma print_config_off_fails_witness :
  print_config (resolve true None (inl [(UseSmallHeuristics, H_OFF)])) = None.
Proof. vm_compute; reflexivity. Qed.
