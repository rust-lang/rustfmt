(* C13/Examples.v — non-vacuity: a depth-3 crate mixing name.rs / name/mod.rs / #[path] / inline nesting /
   cfg_if! / cfg_attr(path) / skip / ignore / @generated, with decoy files, meets every hypothesis of the
   theorems of Props.v; the _refuted witnesses are W1..W12 of Lemmas.v.
   Spelling: module or directory n is n00n on disk, CRs n is n00n.rs, CModRs is mod.rs. *)
From V Require Import Base.Text C13.Model C13.Lemmas C13.Props.

(* n009.rs (root):  mod n000;  mod n001;  #[path = "n005/n006.rs"] mod n002;  mod n003 { mod n004; }
                    cfg_if! { if .. { mod n007; } else { fn .. } }  #[rustfmt::skip] mod n008;  fn ..
   n000.rs:         mod n001;  mod n002 { mod n003; }  mod n004 { fn .. }     (no directory n000/n004: the
                                                                               exists() heuristic fires, harmlessly)
   n000/n001.rs:    mod n002;                                                  (depth 3: n000/n001/n002.rs)
   n001/mod.rs:     mod n002;  #[cfg_attr(.., path = "n006.rs")] mod n003;     (n001/n002.rs is in `ignore`)
   n005/n006.rs:    mod n000;                                                  (a #[path] file owns its directory)
   decoys:          n002.rs  n004.rs  n000/n003.rs  n005/mod.rs  n008.rs (skipped declaration) *)
Definition E1 : world := mkWorld
  [([CRs 9], 0); ([CRs 0], 1); ([CDir 1; CModRs], 2); ([CDir 5; CRs 6], 3); ([CDir 3; CRs 4], 4);
   ([CDir 0; CRs 1], 5); ([CDir 0; CDir 2; CRs 3], 6); ([CDir 0; CDir 1; CRs 2], 7); ([CDir 1; CRs 2], 8);
   ([CDir 1; CRs 6], 9); ([CDir 1; CRs 3], 10); ([CDir 5; CRs 0], 11); ([CRs 7], 12); ([CRs 8], 13);
   ([CRs 2], 20); ([CDir 0; CRs 3], 21); ([CDir 5; CModRs], 22); ([CRs 4], 23)]
  [[CDir 0]; [CDir 0; CDir 1]; [CDir 0; CDir 2]; [CDir 1]; [CDir 3]; [CDir 5]]
  [(0, Some [ModDecl 0 A0; ModDecl 1 A0; ModDecl 2 (Apath [CDir 5; CRs 6]); ModInline 3 A0 [ModDecl 4 A0];
             CfgIf [ModDecl 7 A0; Other]; ModDecl 8 Askip; Other]);
   (1, Some [ModDecl 1 A0; ModInline 2 A0 [ModDecl 3 A0]; ModInline 4 A0 [Other]]);
   (5, Some [ModDecl 2 A0]);
   (2, Some [ModDecl 2 A0; ModDecl 3 (Acfg [[CRs 6]])]);
   (3, Some [ModDecl 0 A0])]
  [(8, mkFacts false false true); (11, mkFacts false true false)]
  [CRs 9].

Definition E1_S : list path :=
  [[CDir 0; CDir 1; CRs 2]; [CDir 0; CRs 1]; [CDir 0; CDir 2; CRs 3]; [CRs 0]; [CDir 1; CModRs];
   [CDir 1; CRs 3]; [CDir 1; CRs 6]; [CDir 3; CRs 4]; [CDir 5; CRs 0]; [CDir 5; CRs 6]; [CRs 7]; [CRs 9]].

Example e1_resolve : w_resolve E1 cfg0 = Ok E1_S.
Proof. vm_compute. reflexivity. Qed.

(* the node lists that eight rounds find are closed: computed once for the examples below *)
Lemma e1_closed : forall pr, closed_nodes (w_lookup E1) (w_ast E1) (w_ff E1) true pr (w_root E1) (w_nodes E1 true pr) = true.
Proof. intros []; vm_compute; reflexivity. Qed.

Example e1_tame : Tame (w_lookup E1) (w_ast E1) (w_ff E1) (w_root E1).
Proof. apply (tame_check_sound _ _ _ _ _ (e1_closed true)). vm_compute. reflexivity. Qed.

(* the theorem applies: membership in the result is exactly Reach and not Excluded *)
Example e1_characterised : forall p, In p E1_S <-> (w_Reach E1 p /\ ~ w_Excluded E1 cfg0 p).
Proof. exact (resolve_sound_complete _ _ _ _ _ _ _ e1_tame e1_resolve). Qed.

(* decoys: not reached, hence not formatted *)
Example e1_decoy_not_reached : ~ w_Reach E1 [CRs 2] /\ ~ w_Reach E1 [CDir 5; CModRs] /\ ~ w_Reach E1 [CRs 4].
Proof. repeat split; apply (not_reach_by_check _ _ _ _ _ _ _ _ (e1_closed false)); vm_compute; reflexivity. Qed.
Example e1_decoy_untouched : ~ In [CRs 2] E1_S.
Proof. apply (decoys_untouched _ _ _ _ _ _ _ e1_tame e1_resolve). apply e1_decoy_not_reached. Qed.

(* reached but excluded: the ignored file and the skipped module *)
Example e1_ignored_excluded : w_Reach E1 [CDir 1; CRs 2] /\ w_Excluded E1 cfg0 [CDir 1; CRs 2].
Proof.
  split; [reach_pos|]. right. left. split; [reflexivity|]. exists 8. split; [vm_compute; reflexivity|].
  right. left. vm_compute. reflexivity.
Qed.
Example e1_skipped_excluded : w_Reach E1 [CRs 8] /\ w_Excluded E1 cfg0 [CRs 8].
Proof.
  split; [reach_pos|]. right. right. apply (not_reach_by_check _ _ _ _ _ _ _ _ (e1_closed true)). vm_compute. reflexivity.
Qed.

(* no duplicates, sorted *)
Example e1_nodup : NoDup E1_S.
Proof. exact (resolve_nodup _ _ _ _ _ _ _ e1_resolve). Qed.

(* no error: there is no witness *)
Example e1_no_error : ~ exists e, ErrWitness (w_lookup E1) (w_ast E1) (w_ff E1) (w_root E1) e.
Proof.
  intros H.
  assert (Hno : resolve_fuel (w_lookup E1) (w_ast E1) (w_ff E1) 20 cfg0 (w_root E1) <> Err OutOfFuel)
    by (vm_compute; discriminate).
  destruct (resolve_error_iff _ _ _ 20 cfg0 _ e1_tame eq_refl eq_refl Hno) as [[_ Hc] _].
  destruct (Hc H) as (e & He). change (w_resolve E1 cfg0 = Err e) in He. rewrite e1_resolve in He. discriminate.
Qed.

(* a crate with an error, within the hypotheses: E2 = `mod n000;` with n000.rs and n000/mod.rs *)
Definition E2 : world := mkWorld [([CRs 9], 0); ([CRs 0], 1); ([CDir 0; CModRs], 2)] [[CDir 0]]
  [(0, Some [ModDecl 0 A0])] [] [CRs 9].
Example e2_tame : Tame (w_lookup E2) (w_ast E2) (w_ff E2) (w_root E2).
Proof. apply (tame_check_sound _ _ _ _ (w_nodes E2 true true)); vm_compute; reflexivity. Qed.
Example e2_error : w_resolve E2 cfg0 = Err MultipleCandidates.
Proof. vm_compute. reflexivity. Qed.
Example e2_witness : ErrWitness (w_lookup E2) (w_ast E2) (w_ff E2) (w_root E2) MultipleCandidates.
Proof.
  assert (Hno : resolve_fuel (w_lookup E2) (w_ast E2) (w_ff E2) 20 cfg0 (w_root E2) <> Err OutOfFuel)
    by (vm_compute; discriminate).
  destruct (resolve_error_iff _ _ _ 20 cfg0 _ e2_tame eq_refl eq_refl Hno) as [_ Hs]. apply Hs. exact e2_error.
Qed.

(* skip_children / stdin: only the root *)
Example e1_skip_children : w_resolve E1 (mkConfig true true false) = Ok [[CRs 9]].
Proof. vm_compute. reflexivity. Qed.
Example e1_stdin : w_resolve E1 (mkConfig false true true) = Ok [[CRs 9]].
Proof. vm_compute. reflexivity. Qed.

(* fuel: with a lookup in which `..` never resolves (the literal lists), the file list bounds the fuel *)
Example e1_finite : forall p id, fs_of (w_files E1) (w_dirs E1) p = Some (File id) -> In p (map fst (w_files E1)).
Proof. intros p id. apply fs_of_finite. Qed.
Example e1_fuel : resolve_fuel (fs_of (w_files E1) (w_dirs E1)) (w_ast E1) (w_ff E1)
                    (length (w_files E1)) cfg0 (w_root E1) <> Err OutOfFuel.
Proof. apply (resolve_fuel_enough _ _ _ (map fst (w_files E1)) e1_finite). rewrite map_length. apply le_n. Qed.
Example e1_plain_same : resolve_fuel (fs_of (w_files E1) (w_dirs E1)) (w_ast E1) (w_ff E1)
                    (length (w_files E1)) cfg0 (w_root E1) = Ok E1_S.
Proof. vm_compute. reflexivity. Qed.
