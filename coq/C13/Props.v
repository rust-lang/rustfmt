(* C13/Props.v — C13: "Given a crate root, rustfmt formats the root and precisely those files reached through
   `mod name;` declarations resolved by the language's rules (name.rs or name/mod.rs relative to the declaring
   file's module directory, nested inline modules, #[path], cfg_attr(path), cfg_if!/cfg_match! bodies; plus the
   documented fallback to the declaring file's own directory when the nested location does not exist), except
   modules or files that are skipped, matched by `ignore`, marked @generated when generated files are excluded,
   or any child when skip_children is set or the input is standard input. Each such file is formatted once even
   if reached twice, no other file in the tree is read for writing, and an ambiguous or missing module is an
   error rather than a guess."

   [resolve_fuel lookup ast ffacts fuel cfg root] is the transcription of ModResolver + format_project's filter
   (Model.v) as they are NOW ([resolve_fuel_pre]: before the repair of insert_sub_mod, commit 0b20f11; every proof
   of Lemmas.v is generic in that flag); [Reach] is the inductive closure of the language's one-step rules with the documented fallback,
   [Excluded] the exclusions (a file is also excluded when it is only reachable through skipped modules).
   The code and the rules DISAGREE on several shapes: each has a _refuted theorem below with a concrete tree,
   and the positive theorems assume [Tame], the conjunction of the hypotheses that exclude exactly these shapes
   (decidable on a concrete tree: tame_check_sound). *)
From V Require Import Base.Text C13.Model C13.Lemmas.
From Coq Require Import Sorting.Sorted.

(* main clause: the formatted files are exactly the reachable, non-excluded ones *)
Theorem resolve_sound_complete :
  forall (lookup : path -> option node) (ast : N -> option (list decl)) (ffacts : N -> facts)
         (fuel : nat) (cfg : config) (root : path) (S : list path),
    Tame lookup ast ffacts root -> resolve_fuel lookup ast ffacts fuel cfg root = Ok S ->
    forall p, In p S <-> (Reach lookup ast ffacts root p /\ ~ Excluded lookup ast ffacts cfg root p).
Proof. exact (resolve_sound_complete_lemma true). Qed.
Print Assumptions resolve_sound_complete.

(* "each such file is formatted once": no path occurs twice in the result (unconditional; on LITERAL paths,
   see formatted_once_refuted) *)
Theorem resolve_nodup :
  forall lookup ast ffacts fuel cfg root S,
    resolve_fuel lookup ast ffacts fuel cfg root = Ok S -> NoDup S.
Proof. exact resolve_nodup_lemma. Qed.
Print Assumptions resolve_nodup.

(* the files are handed to the formatter in BTreeMap order: strictly increasing for Path::cmp *)
Theorem resolve_sorted :
  forall lookup ast ffacts fuel cfg root S,
    resolve_fuel lookup ast ffacts fuel cfg root = Ok S ->
    StronglySorted (fun p q => path_ltb p q = true) S.
Proof. exact resolve_sorted_lemma. Qed.
Print Assumptions resolve_sorted.

(* "an ambiguous or missing module is an error rather than a guess": with enough fuel the resolver fails iff
   some non-skipped reachable declaration (or the root) is missing / ambiguous / unparsable, and the reported
   kind is the kind of such a declaration *)
Theorem resolve_error_iff :
  forall lookup ast ffacts fuel cfg root,
    Tame lookup ast ffacts root -> skip_children cfg = false -> input_is_stdin cfg = false ->
    resolve_fuel lookup ast ffacts fuel cfg root <> Err OutOfFuel ->
    ((exists e, resolve_fuel lookup ast ffacts fuel cfg root = Err e)
       <-> (exists e, ErrWitness lookup ast ffacts root e))
    /\ (forall e, resolve_fuel lookup ast ffacts fuel cfg root = Err e -> ErrWitness lookup ast ffacts root e).
Proof. exact resolve_error_iff_lemma. Qed.
Print Assumptions resolve_error_iff.

(* "no other file in the tree is read for writing": a file the rules do not reach is not in the result *)
Theorem decoys_untouched :
  forall lookup ast ffacts fuel cfg root S,
    Tame lookup ast ffacts root -> resolve_fuel lookup ast ffacts fuel cfg root = Ok S ->
    forall p, ~ Reach lookup ast ffacts root p -> ~ In p S.
Proof. exact (decoys_untouched_lemma true). Qed.
Print Assumptions decoys_untouched.

(* "any child when skip_children is set" (unconditional) *)
Theorem skip_children_only_root :
  forall lookup ast ffacts fuel cfg root S,
    skip_children cfg = true -> resolve_fuel lookup ast ffacts fuel cfg root = Ok S ->
    forall p, In p S -> p = root.
Proof. exact (skip_children_only_root_lemma true). Qed.
Print Assumptions skip_children_only_root.

(* "or the input is standard input" (unconditional) *)
Theorem stdin_only_root :
  forall lookup ast ffacts fuel cfg root S,
    input_is_stdin cfg = true -> resolve_fuel lookup ast ffacts fuel cfg root = Ok S -> S = [root].
Proof. exact (stdin_only_root_lemma true). Qed.
Print Assumptions stdin_only_root.

(* termination: when the lookup answers File for finitely many literal paths, the already-parsed check bounds
   the nesting of files by their number (false for a lookup that resolves `..`: fuel_enough_refuted) *)
Theorem resolve_fuel_enough :
  forall lookup ast ffacts (files : list path),
    (forall p id, lookup p = Some (File id) -> In p files) ->
    forall fuel cfg root, (length files <= fuel)%nat ->
    resolve_fuel lookup ast ffacts fuel cfg root <> Err OutOfFuel.
Proof. exact (resolve_fuel_enough_lemma true). Qed.
Print Assumptions resolve_fuel_enough.

(* the hypotheses are decidable on a concrete tree, from the closed node list of the pruned closure *)
Theorem tame_decidable :
  forall lookup ast ffacts root (l : list lnode),
    closed_nodes lookup ast ffacts true true root l = true ->
    tame_check lookup ast ffacts root l = true -> Tame lookup ast ffacts root.
Proof. exact tame_check_sound. Qed.
Print Assumptions tame_decidable.

(* ---- disagreements between the code and the rules (concrete trees W1..W12 of Lemmas.v) ---- *)

(* "formatted once even if reached twice" is false on files: two spellings (`n005/../n001.rs`, `n001.rs`) of
   one file are both formatted *)
Theorem formatted_once_refuted : exists (w : world) S p q id,
  w_resolve w cfg0 = Ok S /\ In p S /\ In q S /\ p <> q /\
  w_lookup w p = Some (File id) /\ w_lookup w q = Some (File id).
Proof. exact formatted_once_refuted_lemma. Qed.
Print Assumptions formatted_once_refuted.

(* "except files that are skipped" was false of the code BEFORE the repair of insert_sub_mod (resolve_fuel_pre,
   commit 0b20f11): a file starting with #![rustfmt::skip], named by two cfg_attr(path) declarations, was
   handed to the formatter with the module of the declaration (the declaring file's text was written to it) *)
Theorem skipped_file_excluded_refuted : exists (w : world) S p id,
  w_resolve_pre w cfg0 = Ok S /\ In p S /\ w_lookup w p = Some (File id) /\ inner_skip (w_ff w id) = true /\
  w_Excluded w cfg0 p.
Proof. exact skipped_file_excluded_refuted_lemma. Qed.
Print Assumptions skipped_file_excluded_refuted.

(* on that tree the current code formats the same files except the skipped one *)
Theorem skipped_file_excluded_repaired : exists (w : world) S' S p,
  w_resolve_pre w cfg0 = Ok S' /\ In p S' /\ w_Excluded w cfg0 p /\
  w_resolve w cfg0 = Ok S /\ ~ In p S /\ (forall q, In q S' -> q <> p -> In q S).
Proof. exact skipped_file_excluded_repaired_lemma. Qed.
Print Assumptions skipped_file_excluded_repaired.

(* decoys_untouched and "error rather than a guess" are false without Tame: the exists() heuristic of
   push_inline_mod_directory formats a file the language does not reach, where the language reports a missing
   module *)
Theorem decoys_untouched_refuted : exists (w : world) S p e,
  w_resolve w cfg0 = Ok S /\ In p S /\ ~ w_Reach w p /\
  ErrWitness (w_lookup w) (w_ast w) (w_ff w) (w_root w) e.
Proof. exact decoys_untouched_refuted_lemma. Qed.
Print Assumptions decoys_untouched_refuted.

(* an input with a sibling directory named after it is not treated as a crate root *)
Theorem root_is_crate_root_refuted : exists (w : world) S p q,
  w_resolve w cfg0 = Ok S /\ In p S /\ ~ w_Reach w p /\
  w_Reach w q /\ ~ w_Excluded w cfg0 q /\ ~ In q S.
Proof. exact root_is_crate_root_refuted_lemma. Qed.
Print Assumptions root_is_crate_root_refuted.

(* completeness is false when a file is reached under two contexts: the second is cut by is_file_parsed *)
Theorem reached_twice_complete_refuted : exists (w : world) S p,
  w_resolve w cfg0 = Ok S /\ w_Reach w p /\ ~ w_Excluded w cfg0 p /\ ~ In p S.
Proof. exact reached_twice_complete_refuted_lemma. Qed.
Print Assumptions reached_twice_complete_refuted.

(* cfg_if! directly inside a cfg_if! body *)
Theorem nested_cfg_if_refuted : exists (w : world) S p,
  w_resolve w cfg0 = Ok S /\ w_Reach w p /\ ~ w_Excluded w cfg0 p /\ ~ In p S.
Proof. exact nested_cfg_if_refuted_lemma. Qed.
Print Assumptions nested_cfg_if_refuted.

(* cfg_attr(.., path = ..) on an inline module *)
Theorem inline_cfg_attr_path_refuted : exists (w : world) S p,
  w_resolve w cfg0 = Ok S /\ w_Reach w p /\ ~ w_Excluded w cfg0 p /\ ~ In p S.
Proof. exact inline_cfg_attr_path_refuted_lemma. Qed.
Print Assumptions inline_cfg_attr_path_refuted.

(* an unparsable file is not always an error: swallowed through a cfg_attr(path) candidate *)
Theorem unparsable_is_error_refuted : exists (w : world) S,
  w_resolve w cfg0 = Ok S /\ ErrWitness (w_lookup w) (w_ast w) (w_ff w) (w_root w) ParseError.
Proof. exact unparsable_is_error_refuted_lemma. Qed.
Print Assumptions unparsable_is_error_refuted.

(* termination is false when `..` resolves: a self-including #[path = "n005/../n000.rs"] is never cut *)
Theorem fuel_enough_refuted : exists (w : world), forall fuel,
  resolve_fuel (w_lookup w) (w_ast w) (w_ff w) fuel cfg0 (w_root w) = Err OutOfFuel.
Proof. exact fuel_enough_refuted_lemma. Qed.
Print Assumptions fuel_enough_refuted.

(* ---- where the specification itself departs from rustc, by design of the property ---- *)

(* a skipped `mod x;` whose file does not exist is not an error (rustc: E0583) *)
Theorem skipped_missing_not_an_error : exists (w : world) n,
  w_resolve w cfg0 = Ok [w_root w] /\ lang_default (w_lookup w) false (root_ctx (w_root w)) n = Err NotFound.
Proof. exact skipped_missing_not_an_error_lemma. Qed.
Print Assumptions skipped_missing_not_an_error.

(* skipping a module skips its whole subtree (third disjunct of Excluded) *)
Theorem skip_prunes_subtree : exists (w : world) S q,
  w_resolve w cfg0 = Ok S /\ w_Reach w q /\ ~ In q S /\
  ~ ReachUnskipped (w_lookup w) (w_ast w) (w_ff w) (w_root w) q.
Proof. exact skip_prunes_subtree_lemma. Qed.
Print Assumptions skip_prunes_subtree.

(* the documented fallback formats a file that rustc does not load (rustc: E0583) *)
Theorem fallback_beyond_language : exists (w : world) S p,
  w_resolve w cfg0 = Ok S /\ In p S /\ w_Reach w p /\
  ~ StrictReach (w_lookup w) (w_ast w) (w_ff w) (w_root w) p.
Proof. exact fallback_beyond_language_lemma. Qed.
Print Assumptions fallback_beyond_language.
