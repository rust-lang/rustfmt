(* C17/Props.v — property C17 (--file-lines), range algebra.
   [normalize_ranges] is the switchable definition of Model.v (today: the code
   as it is, [normalize]); fixed_* are about the candidate repair
   [normalize_fixed]; *_refuted are about [normalize], the code as it is.
   inr r l := lo r <= l <= hi r;  U rs l := exists r, In r rs /\ inr r l. *)
From V Require Import Base.Text C17.Model C17.Lemmas.
From Coq Require Import Permutation Sorted.
Local Open Scope N_scope.

(* Range::intersects is true exactly when the two ranges share a line (false whenever one is empty) *)
Theorem intersects_spec : forall a b,
  intersects a b = true <-> exists l, inr a l /\ inr b l.
Proof. exact intersects_spec_l. Qed.
Print Assumptions intersects_spec.

(* Range::contains is true exactly when every line of other is a line of self (true for an empty other) *)
Theorem contains_spec : forall a b,
  contains a b = true <-> forall l, inr b l -> inr a l.
Proof. exact contains_spec_l. Qed.
Print Assumptions contains_spec.

(* Range::adjacent_to: both non-empty and one starts on the line after the other ends *)
Theorem adjacent_spec : forall a b,
  adjacent_to a b = true <->
  lo a <= hi a /\ lo b <= hi b /\ (hi a + 1 = lo b \/ hi b + 1 = lo a).
Proof. exact adjacent_arith. Qed.
Print Assumptions adjacent_spec.

(* Range::merge, when it returns a range, returns exactly the union of the two *)
Theorem merge_spec : forall a b c,
  merge a b = Some c -> forall l, inr c l <-> inr a l \/ inr b l.
Proof. exact merge_spec_l. Qed.
Print Assumptions merge_spec.

(* Range::merge returns a range exactly under the guard the code checks: adjacent or intersecting *)
Theorem merge_defined : forall a b,
  (exists c, merge a b = Some c) <-> adjacent_to a b = true \/ intersects a b = true.
Proof. exact merge_defined_l. Qed.
Print Assumptions merge_defined.

(* modelling Vec::sort by insertion sort is harmless: a sorted permutation, and the only one *)
Theorem sort_model_harmless : forall rs,
  Permutation (sort_ranges rs) rs
  /\ StronglySorted range_le (sort_ranges rs)
  /\ forall l, Permutation l rs -> StronglySorted range_le l -> l = sort_ranges rs.
Proof. exact sort_model_harmless_l. Qed.
Print Assumptions sort_model_harmless.

(* normalisation preserves the set of selected lines, for ALL inputs (empty ranges included) *)
Theorem normalize_same_set : forall rs l, U (normalize_ranges rs) l <-> U rs l.
Proof. exact fixed_same_set_l. Qed.
Print Assumptions normalize_same_set.

(* without empty ranges the result is sorted, disjoint and non-adjacent (overlapping or adjacent ranges are merged) *)
Theorem normalize_nf : forall rs,
  no_empty rs -> SortedDisjointNonAdjacent (normalize_ranges rs).
Proof. exact normalize_nf_l. Qed.
Print Assumptions normalize_nf.

(* REFUTED without no_empty: an empty range sorted between two overlapping ones blocks their merge; witness [(1,5);(3,2);(4,8)] *)
Theorem normalize_nf_refuted : exists rs, ~ SortedDisjointNonAdjacent (normalize rs).
Proof. exact normalize_nf_refuted_l. Qed.
Print Assumptions normalize_nf_refuted.

(* REFUTED: the documented invariant (non-overlapping ranges) itself fails on the same witness: (1,5) and (4,8) both survive and share line 4 *)
Theorem normalize_overlap_refuted :
  exists rs r r' l, In r (normalize rs) /\ In r' (normalize rs) /\ r <> r'
                    /\ inr r l /\ inr r' l.
Proof. exact normalize_overlap_refuted_l. Qed.
Print Assumptions normalize_overlap_refuted.

(* a range query after normalisation is answered as by the UNION of the ranges; exact form: true iff some line is selected and every line of [a,b] is selected (so an empty query a > b is true iff the selection is not empty) *)
Theorem contains_range_union : forall rs a b,
  no_empty rs ->
  (contains_range (normalize_ranges rs) a b = true <->
   (exists l, U rs l) /\ forall l, a <= l <= b -> U rs l).
Proof. exact contains_range_union_l. Qed.
Print Assumptions contains_range_union.

(* the same for a non-empty query range, in the shape of the property text *)
Theorem contains_range_union_nonempty_query : forall rs a b,
  no_empty rs -> a <= b ->
  (contains_range (normalize_ranges rs) a b = true <-> forall l, a <= l <= b -> U rs l).
Proof. exact contains_range_union_nonempty_query_l. Qed.
Print Assumptions contains_range_union_nonempty_query.

(* what the code answers for an empty query range: true unless the file has no range at all *)
Theorem contains_range_empty_query : forall rs a b,
  no_empty rs -> b < a ->
  (contains_range (normalize_ranges rs) a b = true <-> rs <> []).
Proof. exact contains_range_empty_query_l. Qed.
Print Assumptions contains_range_empty_query.

(* REFUTED without no_empty: same witness, query (2,7): every line is selected yet contains_range is false *)
Theorem contains_range_union_refuted :
  exists rs a b, a <= b /\ (forall l, a <= l <= b -> U rs l)
                 /\ contains_range (normalize rs) a b = false.
Proof. exact contains_range_union_refuted_l. Qed.
Print Assumptions contains_range_union_refuted.

(* an intersection query is answered as by the union, for ALL inputs (no_empty not needed) *)
Theorem intersects_union : forall rs a b,
  intersects_q (normalize_ranges rs) a b = true <-> exists l, a <= l <= b /\ U rs l.
Proof. exact fixed_intersects_union_l. Qed.
Print Assumptions intersects_union.

(* a line query is answered as by the union, for ALL inputs *)
Theorem contains_line_union : forall rs l,
  contains_line (normalize_ranges rs) l = true <-> U rs l.
Proof. exact fixed_contains_line_union_l. Qed.
Print Assumptions contains_line_union.

(* overlapping or adjacent ranges behave as their union: selections with the same lines answer all three queries alike *)
Theorem union_extensional : forall rs rs',
  no_empty rs -> no_empty rs' -> (forall l, U rs l <-> U rs' l) ->
  forall a b,
    contains_range (normalize_ranges rs) a b = contains_range (normalize_ranges rs') a b
    /\ intersects_q (normalize_ranges rs) a b = intersects_q (normalize_ranges rs') a b
    /\ contains_line (normalize_ranges rs) a = contains_line (normalize_ranges rs') a.
Proof. exact union_extensional_l. Qed.
Print Assumptions union_extensional.

(* normalisation is idempotent, for ALL inputs *)
Theorem normalize_idem : forall rs,
  normalize_ranges (normalize_ranges rs) = normalize_ranges rs.
Proof. exact nr_idem. Qed.
Print Assumptions normalize_idem.

(* FileLines::all answers every query true; no files, a file not named in the selection, or a name that cannot be canonicalised: every query false *)
Theorem empty_selects_nothing :
  (forall canon l a b q,
      fl_contains_line fl_all canon l = true
      /\ fl_contains_range fl_all canon a b = true
      /\ fl_intersects fl_all canon q = true)
  /\ (forall canon l a b q,
      fl_contains_line (from_ranges []) canon l = false
      /\ fl_contains_range (from_ranges []) canon a b = false
      /\ fl_intersects (from_ranges []) canon q = false)
  /\ (forall m f l a b q,
      map_get m f = None ->
      fl_contains_line (from_ranges m) (Some f) l = false
      /\ fl_contains_range (from_ranges m) (Some f) a b = false
      /\ fl_intersects (from_ranges m) (Some f) q = false)
  /\ (forall m l a b q,
      fl_contains_line (from_ranges m) None l = false
      /\ fl_contains_range (from_ranges m) None a b = false
      /\ fl_intersects (from_ranges m) None q = false).
Proof. exact empty_selects_nothing_l. Qed.
Print Assumptions empty_selects_nothing.

(* a named file whose ranges hold no line (no range, or only EMPTY lo > hi ranges) selects nothing (range query: for a non-empty query) *)
Theorem empty_ranges_select_nothing : forall m f rs l a b,
  map_get m f = Some rs -> (forall l', ~ U rs l') ->
  fl_contains_line (from_ranges m) (Some f) l = false
  /\ fl_intersects (from_ranges m) (Some f) (MkRange a b) = false
  /\ (a <= b -> fl_contains_range (from_ranges m) (Some f) a b = false).
Proof. exact empty_ranges_select_nothing_l. Qed.
Print Assumptions empty_ranges_select_nothing.

(* the FileLines-level queries for a named file are the union queries on the ranges given for that file *)
Theorem file_queries_union : forall m f rs,
  map_get m f = Some rs ->
  (forall l, fl_contains_line (from_ranges m) (Some f) l = true <-> U rs l)
  /\ (forall a b, fl_intersects (from_ranges m) (Some f) (MkRange a b) = true
                  <-> exists l, a <= l <= b /\ U rs l)
  /\ (no_empty rs -> forall a b,
        fl_contains_range (from_ranges m) (Some f) a b = true
        <-> (exists l, U rs l) /\ forall l, a <= l <= b -> U rs l).
Proof. exact file_queries_union_l. Qed.
Print Assumptions file_queries_union.

(* repair (drop empty ranges first): line membership preserved, ALL inputs *)
Theorem fixed_same_set : forall rs l, U (normalize_fixed rs) l <-> U rs l.
Proof. exact fixed_same_set_l. Qed.
Print Assumptions fixed_same_set.

(* repair: the normal form holds for ALL inputs *)
Theorem fixed_nf : forall rs, SortedDisjointNonAdjacent (normalize_fixed rs).
Proof. exact fixed_nf_l. Qed.
Print Assumptions fixed_nf.

(* repair: range queries are union queries for ALL inputs *)
Theorem fixed_contains_range_union : forall rs a b,
  contains_range (normalize_fixed rs) a b = true <->
  (exists l, U rs l) /\ forall l, a <= l <= b -> U rs l.
Proof. exact fixed_contains_range_union_l. Qed.
Print Assumptions fixed_contains_range_union.

(* repair: intersection queries are union queries for ALL inputs *)
Theorem fixed_intersects_union : forall rs a b,
  intersects_q (normalize_fixed rs) a b = true <-> exists l, a <= l <= b /\ U rs l.
Proof. exact fixed_intersects_union_l. Qed.
Print Assumptions fixed_intersects_union.

(* repair: line queries are union queries for ALL inputs *)
Theorem fixed_contains_line_union : forall rs l,
  contains_line (normalize_fixed rs) l = true <-> U rs l.
Proof. exact fixed_contains_line_union_l. Qed.
Print Assumptions fixed_contains_line_union.

(* repair: idempotent for ALL inputs *)
Theorem fixed_idem : forall rs, normalize_fixed (normalize_fixed rs) = normalize_fixed rs.
Proof. exact fixed_idem_l. Qed.
Print Assumptions fixed_idem.

(* repair: changes nothing on inputs without empty ranges *)
Theorem fixed_agrees : forall rs, no_empty rs -> normalize_fixed rs = normalize rs.
Proof. exact fixed_agrees_l. Qed.
Print Assumptions fixed_agrees.
