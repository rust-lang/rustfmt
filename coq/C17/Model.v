(* C17/Model.v — executable model of rustfmt's --file-lines range algebra.
   Sources modelled (all in src/config/file_lines.rs):
     :85-88    struct Range {lo, hi}, derived Ord     (range, range_leb)
     :103-105  Range::new                             (MkRange)
     :107-109  Range::is_empty                        (is_empty)
     :112-118  Range::contains                        (contains)
     :120-127  Range::intersects                      (intersects)
     :129-135  Range::adjacent_to                     (adjacent_to)
     :139-148  Range::merge                           (merge)
     :157      struct FileLines(Option<HashMap<..>>)  (file_lines)
     :176-195  normalize_ranges                       (sort_ranges, merge_loop, merge_sorted, normalize)
     :199-211  FileLines::all / is_all / from_ranges  (fl_all, fl_is_all, from_ranges)
     :235-249  FileLines::file_range_matches          (file_range_matches)
     :253-270  FileLines::contains / intersects / contains_line / contains_range
                                                      (fl_contains, fl_intersects, fl_contains_line, fl_contains_range)
   Line numbers are usize in the code and N here.  The only arithmetic that can
   overflow is `self.hi + 1` / `other.hi + 1` in adjacent_to (:133), reached
   only when both ranges are non-empty: with hi = usize::MAX a debug build
   panics (attempt to add with overflow) and a release build wraps to 0, so
   that (x, MAX) would be adjacent to (0, y).  The model is exact for every
   hi < 2^64 - 1; line numbers come from JSON integers / real files, so the
   boundary value is not modelled.
   Definitions only; proofs are in Lemmas.v. *)
From V Require Import Base.Text.
Local Open Scope N_scope.

Arguments N.add : simpl never.
Arguments N.sub : simpl never.
Arguments N.mul : simpl never.
Arguments N.ltb : simpl never.
Arguments N.leb : simpl never.
Arguments N.eqb : simpl never.
Arguments N.min : simpl never.
Arguments N.max : simpl never.

(* ------------------------------------------------------------------ *)
(* :85 Range *)
Record range : Type := MkRange { lo : N; hi : N }.

(* :107 Range::is_empty   self.lo > self.hi *)
Definition is_empty (r : range) : bool := hi r <? lo r.

(* :112 Range::contains *)
Definition contains (self other : range) : bool :=
  if is_empty other then true
  else negb (is_empty self) && (lo self <=? lo other) && (hi other <=? hi self).

(* :120 Range::intersects *)
Definition intersects (self other : range) : bool :=
  if is_empty self || is_empty other then false
  else ((lo self <=? hi other) && (hi other <=? hi self))
       || ((lo other <=? hi self) && (hi self <=? hi other)).

(* :129 Range::adjacent_to  (hi + 1: see the overflow note in the header) *)
Definition adjacent_to (self other : range) : bool :=
  if is_empty self || is_empty other then false
  else (hi self + 1 =? lo other) || (hi other + 1 =? lo self).

(* :139 Range::merge *)
Definition merge (self other : range) : option range :=
  if adjacent_to self other || intersects self other
  then Some (MkRange (N.min (lo self) (lo other)) (N.max (hi self) (hi other)))
  else None.

(* ------------------------------------------------------------------ *)
(* :178 ranges.sort()
   #[derive(PartialOrd, Ord)] on struct Range {lo, hi} is the lexicographic
   order on (lo, hi).  Vec::sort is a stable sort; the order is total and
   antisymmetric (a <= b <= a implies a = b as records), so the sorted vector
   is unique and any correct sort models it.  Insertion sort is used here;
   Lemmas.v proves it returns a sorted permutation and that a sorted
   permutation is unique (sort_ranges_perm, sort_ranges_sorted, sort_ranges_unique). *)
Definition range_leb (a b : range) : bool :=
  (lo a <? lo b) || ((lo a =? lo b) && (hi a <=? hi b)).

Fixpoint insert_range (a : range) (rs : list range) : list range :=
  match rs with
  | [] => [a]
  | b :: rs' => if range_leb a b then a :: rs else b :: insert_range a rs'
  end.
Fixpoint sort_ranges (rs : list range) : list range :=
  match rs with
  | [] => []
  | a :: rs' => insert_range a (sort_ranges rs')
  end.

(* :179-192 the peek / merge loop.  [merge_loop next rest] is the state in
   which the outer `while let Some(next) = iter.next()` has taken [next] and
   [rest] is what the peekable iterator still holds.  Inner loop: if
   next.merge(peek) is Some(merged), consume peek and continue with merged;
   otherwise break, push next, and the outer loop takes peek as the new next.
   An empty range never merges (adjacent_to and intersects are both false), so
   it is pushed unchanged and also stops the absorption of what follows it. *)
Fixpoint merge_loop (next : range) (rest : list range) : list range :=
  match rest with
  | [] => [next]
  | peek :: rest' =>
      match merge next peek with
      | Some merged => merge_loop merged rest'
      | None => next :: merge_loop peek rest'
      end
  end.
Definition merge_sorted (rs : list range) : list range :=
  match rs with
  | [] => []
  | next :: rest => merge_loop next rest
  end.

(* :176 normalize_ranges, body of the per-file loop, as the code is today *)
Definition normalize (rs : list range) : list range := merge_sorted (sort_ranges rs).

(* the candidate repair: `ranges.retain(|r| !r.is_empty());` as the first
   statement of the per-file loop *)
Definition normalize_fixed (rs : list range) : list range :=
  normalize (filter (fun r => negb (is_empty r)) rs).

(* THE SWITCH.  Exactly one of the two lines below is active; every theorem
   named normalize_* in Props.v and the functions of Run.v are about
   [normalize_ranges].  The *_refuted theorems are about [normalize] and the
   fixed_* theorems about [normalize_fixed], whatever the switch says. *)
(* since the repair (fix: drop empty ranges before normalising) the code is normalize_fixed;
   the pre-repair code is [normalize] *)
Definition normalize_ranges : list range -> list range := normalize_fixed.

(* ------------------------------------------------------------------ *)
(* :157 FileLines.  File names are opaque identifiers; the HashMap is an
   association list looked up by first match (from_ranges receives a HashMap,
   so keys are distinct). *)
Definition fileid := N.
Definition file_map := list (fileid * list range).
Definition file_lines := option file_map.

(* :199 FileLines::all, :204 is_all *)
Definition fl_all : file_lines := None.
Definition fl_is_all (fl : file_lines) : bool :=
  match fl with None => true | Some _ => false end.

(* :208 FileLines::from_ranges *)
Definition from_ranges (m : file_map) : file_lines :=
  Some (map (fun p => (fst p, normalize_ranges (snd p))) m).

(* HashMap::get *)
Fixpoint map_get (m : file_map) (f : fileid) : option (list range) :=
  match m with
  | [] => None
  | (g, rs) :: m' => if g =? f then Some rs else map_get m' f
  end.

(* :235 FileLines::file_range_matches.  [canon] is the result of
   canonicalize_path_string(file_name) (:284): None when the path of a Real
   file cannot be canonicalised. *)
Definition file_range_matches (fl : file_lines) (canon : option fileid)
           (f : range -> bool) : bool :=
  match fl with
  | None => true
  | Some m =>
      match canon with
      | None => false
      | Some file =>
          match map_get m file with
          | Some ranges => existsb f ranges
          | None => false
          end
      end
  end.

(* the closures passed at :254, :259, :264, :269 *)
Definition q_contains (q : range) (r : range) : bool := contains r q.
Definition q_intersects (q : range) (r : range) : bool := intersects r q.
Definition q_line (line : N) (r : range) : bool := (lo r <=? line) && (line <=? hi r).
Definition q_range (a b : N) (r : range) : bool := contains r (MkRange a b).

(* :253 contains, :258 intersects, :263 contains_line, :268 contains_range *)
Definition fl_contains (fl : file_lines) (canon : option fileid) (q : range) : bool :=
  file_range_matches fl canon (q_contains q).
Definition fl_intersects (fl : file_lines) (canon : option fileid) (q : range) : bool :=
  file_range_matches fl canon (q_intersects q).
Definition fl_contains_line (fl : file_lines) (canon : option fileid) (line : N) : bool :=
  file_range_matches fl canon (q_line line).
Definition fl_contains_range (fl : file_lines) (canon : option fileid) (a b : N) : bool :=
  file_range_matches fl canon (q_range a b).

(* the same queries on the range vector of one file (`ranges.iter().any(f)`) *)
Definition contains_q (rs : list range) (q : range) : bool := existsb (q_contains q) rs.
Definition intersects_q (rs : list range) (a b : N) : bool := existsb (q_intersects (MkRange a b)) rs.
Definition contains_line (rs : list range) (line : N) : bool := existsb (q_line line) rs.
Definition contains_range (rs : list range) (a b : N) : bool := existsb (q_range a b) rs.

(* ------------------------------------------------------------------ *)
(* Specification vocabulary (Props, not executable) *)

(* line l lies in range r *)
Definition inr (r : range) (l : N) : Prop := lo r <= l /\ l <= hi r.
(* line l lies in the union of the ranges *)
Definition U (rs : list range) (l : N) : Prop := exists r, In r rs /\ inr r l.
(* no range is empty *)
Definition no_empty (rs : list range) : Prop := forall r, In r rs -> lo r <= hi r.
(* derived Ord as a relation *)
Definition range_le (a b : range) : Prop := lo a < lo b \/ (lo a = lo b /\ hi a <= hi b).

(* the normal form the doc comment of FileLines promises, and a little more:
   every range non-empty, and each range starts at least two lines after the
   previous one ends (sorted, disjoint, not adjacent) *)
Fixpoint SortedDisjointNonAdjacent (rs : list range) : Prop :=
  match rs with
  | [] => True
  | a :: rs' =>
      lo a <= hi a
      /\ match rs' with [] => True | b :: _ => hi a + 1 < lo b end
      /\ SortedDisjointNonAdjacent rs'
  end.
