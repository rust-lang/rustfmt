(* C17/Lemmas.v — proofs about the --file-lines range algebra of C17/Model.v *)
From V Require Import Base.Text Base.Lists C17.Model.
From Coq Require Import Permutation Sorted.
Local Open Scope N_scope.

Lemma is_empty_spec r : BoolSpec (hi r < lo r) (lo r <= hi r) (is_empty r).
Proof. apply N.ltb_spec. Qed.

Lemma is_empty_false r : is_empty r = false <-> lo r <= hi r.
Proof. apply N.ltb_ge. Qed.

Lemma intersects_arith a b :
  intersects a b = true <->
  lo a <= hi a /\ lo b <= hi b /\ lo a <= hi b /\ lo b <= hi a.
Proof.
  unfold intersects.
  destruct (is_empty_spec a) as [Ea|Ea]; [split; [discriminate | lia]|].
  destruct (is_empty_spec b) as [Eb|Eb]; [split; [discriminate | lia]|].
  cbn [orb]. rewrite orb_true_iff, !andb_true_iff, !N.leb_le. lia.
Qed.

Lemma adjacent_arith a b :
  adjacent_to a b = true <->
  lo a <= hi a /\ lo b <= hi b /\ (hi a + 1 = lo b \/ hi b + 1 = lo a).
Proof.
  unfold adjacent_to.
  destruct (is_empty_spec a) as [Ea|Ea]; [split; [discriminate | lia]|].
  destruct (is_empty_spec b) as [Eb|Eb]; [split; [discriminate | lia]|].
  cbn [orb]. rewrite orb_true_iff, !N.eqb_eq. lia.
Qed.

Lemma contains_arith a b :
  contains a b = true <->
  hi b < lo b \/ (lo a <= hi a /\ lo a <= lo b /\ hi b <= hi a).
Proof.
  unfold contains.
  destruct (is_empty_spec b) as [Eb|Eb]; [split; [left; exact Eb | reflexivity]|].
  rewrite !andb_true_iff, negb_true_iff, is_empty_false, !N.leb_le. lia.
Qed.

Lemma intersects_spec_l a b :
  intersects a b = true <-> exists l, inr a l /\ inr b l.
Proof.
  rewrite intersects_arith. unfold inr. split.
  - intros H. exists (N.max (lo a) (lo b)). lia.
  - intros (l & H). lia.
Qed.

Lemma contains_spec_l a b :
  contains a b = true <-> forall l, inr b l -> inr a l.
Proof.
  rewrite contains_arith. unfold inr. split.
  - intros H l Hl. lia.
  - intros H. destruct (N.lt_ge_cases (hi b) (lo b)) as [He|He]; [left; exact He|].
    right. pose proof (H (lo b)) as H1. pose proof (H (hi b)) as H2. lia.
Qed.

(* the guard of merge, in arithmetic form *)
Definition mergeable (a b : range) : Prop :=
  lo a <= hi a /\ lo b <= hi b /\
  (hi a + 1 = lo b \/ hi b + 1 = lo a \/ (lo a <= hi b /\ lo b <= hi a)).

Lemma mergeable_iff a b :
  mergeable a b <-> adjacent_to a b = true \/ intersects a b = true.
Proof. rewrite adjacent_arith, intersects_arith. unfold mergeable. lia. Qed.

(* what merge returns under its guard *)
Definition join (a b : range) : range := MkRange (N.min (lo a) (lo b)) (N.max (hi a) (hi b)).

Inductive merge_result (a b : range) : option range -> Prop :=
| merge_joined : mergeable a b -> merge_result a b (Some (join a b))
| merge_refused : ~ mergeable a b -> merge_result a b None.

Lemma merge_cases a b : merge_result a b (merge a b).
Proof.
  unfold merge. destruct (adjacent_to a b || intersects a b) eqn:E; constructor.
  - apply mergeable_iff, orb_true_iff, E.
  - rewrite mergeable_iff, <- orb_true_iff, E. discriminate.
Qed.

Lemma join_inr a b l : mergeable a b -> (inr (join a b) l <-> inr a l \/ inr b l).
Proof.
  unfold mergeable, inr, join. cbn [lo hi]. intros Hm. rewrite N.min_le_iff, N.max_le_iff. lia.
Qed.

Lemma merge_spec_l a b c :
  merge a b = Some c -> forall l, inr c l <-> inr a l \/ inr b l.
Proof.
  destruct (merge_cases a b) as [Hm|]; [|discriminate].
  intros [= <-] l. apply join_inr, Hm.
Qed.

Lemma merge_defined_l a b :
  (exists c, merge a b = Some c) <-> adjacent_to a b = true \/ intersects a b = true.
Proof.
  rewrite <- mergeable_iff. destruct (merge_cases a b) as [Hm|Hm]; split.
  - intros _. exact Hm.
  - intros _. exists (join a b). reflexivity.
  - intros (c & [=]).
  - intros H. contradiction.
Qed.

Lemma merge_empty_l a b : hi a < lo a -> merge a b = None.
Proof.
  intros H. destruct (merge_cases a b) as [Hm|]; [|reflexivity].
  unfold mergeable in Hm. lia.
Qed.

Lemma merge_empty_r a b : hi b < lo b -> merge a b = None.
Proof.
  intros H. destruct (merge_cases a b) as [Hm|]; [|reflexivity].
  unfold mergeable in Hm. lia.
Qed.

Lemma U_nil l : U [] l <-> False.
Proof. unfold U. rewrite <- Exists_exists. apply Exists_nil. Qed.

Lemma U_cons a rs l : U (a :: rs) l <-> inr a l \/ U rs l.
Proof. unfold U. rewrite <- !Exists_exists. apply Exists_cons. Qed.

Lemma U_perm rs rs' l : Permutation rs rs' -> (U rs l <-> U rs' l).
Proof. intros HP. unfold U. setoid_rewrite HP. reflexivity. Qed.

Lemma no_empty_cons a rs : no_empty (a :: rs) <-> lo a <= hi a /\ no_empty rs.
Proof. unfold no_empty. rewrite <- !Forall_forall. apply Forall_cons_iff. Qed.

Lemma range_leb_spec a b : range_leb a b = true <-> range_le a b.
Proof.
  unfold range_leb, range_le.
  rewrite orb_true_iff, andb_true_iff, N.ltb_lt, N.eqb_eq, N.leb_le. reflexivity.
Qed.

Lemma range_leb_false a b : range_leb a b = false -> range_le b a.
Proof.
  intros H. apply not_true_iff_false in H. rewrite range_leb_spec in H.
  unfold range_le in *. lia.
Qed.

Lemma range_le_refl a : range_le a a.
Proof. unfold range_le. lia. Qed.

Lemma range_le_trans a b c : range_le a b -> range_le b c -> range_le a c.
Proof. unfold range_le. lia. Qed.

Lemma range_le_total a b : range_le a b \/ range_le b a.
Proof. unfold range_le. lia. Qed.

Lemma range_le_antisym a b : range_le a b -> range_le b a -> a = b.
Proof.
  destruct a as [la ha]. destruct b as [lb hb]. unfold range_le. cbn [lo hi].
  intros H1 H2. f_equal; lia.
Qed.

(* [sort_ranges] is fold_right insert_range [], and [insert_range] has the two equations of Base.Lists'
   insertion sort by computation *)
Lemma sort_ranges_perm rs : Permutation (sort_ranges rs) rs.
Proof. exact (isort_perm range_leb insert_range (fun _ => eq_refl) (fun _ _ _ => eq_refl) rs). Qed.

Lemma sort_ranges_sorted rs : StronglySorted range_le (sort_ranges rs).
Proof.
  exact (isort_sorted range_leb insert_range (fun _ => eq_refl) (fun _ _ _ => eq_refl) range_le
           (fun a b => proj1 (range_leb_spec a b)) range_leb_false range_le_trans rs).
Qed.

Lemma sort_ranges_unique l rs :
  Permutation l rs -> StronglySorted range_le l -> l = sort_ranges rs.
Proof.
  intros HP Hs.
  apply (sorted_perm_unique range_le range_le_antisym); [exact Hs | apply sort_ranges_sorted |].
  rewrite sort_ranges_perm. exact HP.
Qed.

Lemma sort_model_harmless_l : forall rs,
  Permutation (sort_ranges rs) rs
  /\ StronglySorted range_le (sort_ranges rs)
  /\ forall l, Permutation l rs -> StronglySorted range_le l -> l = sort_ranges rs.
Proof.
  intros rs. split; [apply sort_ranges_perm|]. split; [apply sort_ranges_sorted|].
  intros l. apply sort_ranges_unique.
Qed.

Lemma SDNA_cons_iff rs : forall a,
  SortedDisjointNonAdjacent (a :: rs) <->
  lo a <= hi a /\ (forall r, In r rs -> hi a + 1 < lo r) /\ SortedDisjointNonAdjacent rs.
Proof.
  induction rs as [|b rs IH]; intros a.
  - cbn [SortedDisjointNonAdjacent In]. tauto.
  - cbn [SortedDisjointNonAdjacent].
    split; [|intros (Ha & Hab & Hs); auto using in_eq].
    intros (Ha & Hab & Hs). split; [exact Ha|]. split; [|exact Hs].
    apply IH in Hs as (Hb & Hbr & _).
    intros r [<-|Hr]; [exact Hab | specialize (Hbr r Hr); lia].
Qed.

Lemma SDNA_no_empty rs : SortedDisjointNonAdjacent rs -> no_empty rs.
Proof.
  induction rs as [|a rs IH]; [intros _ r []|].
  intros Hs. apply SDNA_cons_iff in Hs as (Ha & _ & Hs).
  apply no_empty_cons. split; [exact Ha | apply IH, Hs].
Qed.

Lemma SDNA_pairwise rs :
  SortedDisjointNonAdjacent rs ->
  forall r r', In r rs -> In r' rs -> r = r' \/ hi r + 1 < lo r' \/ hi r' + 1 < lo r.
Proof.
  induction rs as [|a rs IH]; intros Hs r r' Hr Hr'; [destruct Hr|].
  apply SDNA_cons_iff in Hs as (_ & Ha & Hs).
  destruct Hr as [<-|Hr]; destruct Hr' as [<-|Hr']; auto.
Qed.

(* the documented invariant proper: distinct ranges share no line *)
Lemma SDNA_disjoint rs :
  SortedDisjointNonAdjacent rs ->
  forall r r' l, In r rs -> In r' rs -> inr r l -> inr r' l -> r = r'.
Proof.
  intros Hs r r' l Hr Hr' H H'.
  destruct (SDNA_pairwise _ Hs r r' Hr Hr') as [E|E]; [exact E|].
  unfold inr in *. exfalso. lia.
Qed.

Lemma SDNA_sorted rs :
  SortedDisjointNonAdjacent rs -> StronglySorted range_le rs.
Proof.
  induction rs as [|a rs IH]; intros Hs; [constructor|].
  apply SDNA_cons_iff in Hs as (Ha & Har & Hs).
  apply SS_cons_iff. split; [apply IH, Hs|].
  intros r Hr. specialize (Har r Hr). unfold range_le. lia.
Qed.

(* a contiguous block of selected lines lies inside ONE range *)
Lemma SDNA_interval ns a b :
  SortedDisjointNonAdjacent ns -> a <= b ->
  (forall l, a <= l <= b -> U ns l) ->
  exists r, In r ns /\ lo r <= a /\ b <= hi r.
Proof.
  intros Hs Hab H.
  destruct (H a) as (r & Hr & Hra); [lia|].
  exists r. split; [exact Hr|]. unfold inr in Hra. split; [lia|].
  destruct (N.le_gt_cases b (hi r)) as [Hle|Hgt]; [exact Hle|]. exfalso.
  destruct (H (hi r + 1)) as (r' & Hr' & Hr'a); [lia|]. unfold inr in Hr'a.
  destruct (SDNA_pairwise _ Hs r r' Hr Hr') as [E|[E|E]]; [subst r'; lia | lia | lia].
Qed.

(* the runs of the loop: from the state (next, rest) on it pushes [out] *)
Inductive merge_loop_run : range -> list range -> list range -> Prop :=
| run_last p : merge_loop_run p [] [p]
| run_join p q rest out :
    mergeable p q -> merge_loop_run (join p q) rest out -> merge_loop_run p (q :: rest) out
| run_push p q rest out :
    ~ mergeable p q -> merge_loop_run q rest out ->
    merge_loop_run p (q :: rest) (p :: out).

Lemma merge_loop_runs rest : forall p, merge_loop_run p rest (merge_loop p rest).
Proof.
  induction rest as [|q rest IH]; intros p; cbn [merge_loop]; [constructor|].
  destruct (merge_cases p q) as [Hm|Hm].
  - apply run_join; auto.
  - apply run_push; auto.
Qed.

Lemma merge_loop_same_set l rest next :
  U (merge_loop next rest) l <-> inr next l \/ U rest l.
Proof.
  induction (merge_loop_runs rest next)
    as [p | p q rest out Hm _ IH | p q rest out _ _ IH].
  - apply U_cons.
  - rewrite IH, U_cons, (join_inr p q l Hm). apply or_assoc.
  - rewrite !U_cons, IH. reflexivity.
Qed.

Lemma normalize_same_set_raw rs l : U (normalize rs) l <-> U rs l.
Proof.
  unfold normalize. rewrite <- (U_perm _ _ l (sort_ranges_perm rs)).
  destruct (sort_ranges rs) as [|a rs']; cbn [merge_sorted]; [reflexivity|].
  rewrite merge_loop_same_set, U_cons. reflexivity.
Qed.

(* The bound on the starts is for the case where [p] is pushed: [q] starts beyond the line after [p], and
   then so does everything the loop pushes from [q] on. *)
Lemma merge_loop_nf rest p :
  StronglySorted range_le (p :: rest) -> no_empty (p :: rest) ->
  SortedDisjointNonAdjacent (merge_loop p rest)
  /\ forall r, In r (merge_loop p rest) -> lo p <= lo r.
Proof.
  induction (merge_loop_runs rest p)
    as [p | p q rest out Hm _ IH | p q rest out Hm _ IH]; intros Hs Hne;
    apply SS_cons_iff in Hs as [Hs Hp]; apply no_empty_cons in Hne as [Hp' Hne].
  - split; [exact (conj Hp' (conj I I))|]. intros r [<-|[]]. reflexivity.
  - apply SS_cons_iff in Hs as [Hs Hq]. apply no_empty_cons in Hne as [Hq' Hne].
    pose proof (Hp q (or_introl eq_refl)) as Hpq. unfold range_le in Hpq.
    (* the joined range starts where [p] starts *)
    assert (lo (join p q) = lo p) as E by (cbn [join lo]; lia).
    rewrite <- E. apply IH.
    + apply SS_cons_iff. split; [exact Hs|]. intros x Hx.
      specialize (Hp x (or_intror Hx)). specialize (Hq x Hx).
      unfold range_le in *. rewrite E. cbn [join hi]. lia.
    + apply no_empty_cons. split; [rewrite E; cbn [join hi]; lia | exact Hne].
  - destruct (IH Hs Hne) as [Hnf Hout].
    assert (hi p + 1 < lo q) as Hgap.
    { specialize (Hp q (or_introl eq_refl)). apply no_empty_cons in Hne as [Hq _].
      unfold mergeable, range_le in *. lia. }
    split.
    + apply SDNA_cons_iff. split; [exact Hp'|]. split; [|exact Hnf].
      intros r Hr. specialize (Hout r Hr). lia.
    + intros r [<-|Hr]; [reflexivity|]. specialize (Hout r Hr). lia.
Qed.

Lemma normalize_nf_raw rs : no_empty rs -> SortedDisjointNonAdjacent (normalize rs).
Proof.
  intros Hne. unfold normalize.
  assert (no_empty (sort_ranges rs)) as Hne'
    by (intros r Hr; apply Hne, (Permutation_in _ (sort_ranges_perm rs)), Hr).
  pose proof (sort_ranges_sorted rs) as Hs.
  destruct (sort_ranges rs) as [|a l]; cbn [merge_sorted]; [exact I|].
  exact (proj1 (merge_loop_nf l a Hs Hne')).
Qed.

Lemma merge_loop_id rest p :
  SortedDisjointNonAdjacent (p :: rest) -> merge_loop p rest = p :: rest.
Proof.
  induction (merge_loop_runs rest p)
    as [p | p q rest out Hm _ _ | p q rest out _ _ IH].
  - reflexivity.
  - intros (_ & Hpq & _). unfold mergeable in Hm. lia.
  - intros (_ & _ & Hs). f_equal. apply IH, Hs.
Qed.

Lemma normalize_fixpoint rs : SortedDisjointNonAdjacent rs -> normalize rs = rs.
Proof.
  intros Hs. unfold normalize.
  rewrite <- (sort_ranges_unique rs rs (Permutation_refl rs) (SDNA_sorted rs Hs)).
  destruct rs as [|a l]; cbn [merge_sorted]; [reflexivity|].
  apply merge_loop_id, Hs.
Qed.

Lemma q_line_spec l r : q_line l r = true <-> inr r l.
Proof. unfold q_line, inr. rewrite andb_true_iff, !N.leb_le. reflexivity. Qed.

Lemma contains_line_spec ns l : contains_line ns l = true <-> U ns l.
Proof.
  unfold contains_line, U. rewrite existsb_exists.
  setoid_rewrite q_line_spec. reflexivity.
Qed.

Lemma intersects_q_spec ns a b :
  intersects_q ns a b = true <-> exists l, a <= l <= b /\ U ns l.
Proof.
  unfold intersects_q, q_intersects. rewrite existsb_exists.
  setoid_rewrite intersects_spec_l. split.
  - intros (r & Hr & l & H & Hl). exists l. split; [exact Hl | exists r; auto].
  - intros (l & Hl & r & Hr & H). exists r. split; [exact Hr | exists l; auto].
Qed.

Lemma contains_range_exists ns a b :
  contains_range ns a b = true <->
  exists r, In r ns /\ (b < a \/ (lo r <= hi r /\ lo r <= a /\ b <= hi r)).
Proof.
  unfold contains_range, q_range. rewrite existsb_exists.
  setoid_rewrite contains_arith. reflexivity.
Qed.

Lemma contains_range_sound ns a b :
  contains_range ns a b = true -> forall l, a <= l <= b -> U ns l.
Proof.
  intros H l Hl. apply contains_range_exists in H as (r & Hr & [H|H]); [lia|].
  exists r. split; [exact Hr | unfold inr; lia].
Qed.

(* on a vector in normal form a range query is a query on the union; an
   empty query range (b < a) is answered true iff the vector is not empty *)
Lemma contains_range_nf ns a b :
  SortedDisjointNonAdjacent ns ->
  (contains_range ns a b = true <->
   (exists l, U ns l) /\ forall l, a <= l <= b -> U ns l).
Proof.
  intros Hs. split.
  - intros H. split; [|exact (contains_range_sound _ _ _ H)].
    apply contains_range_exists in H as (r & Hr & _).
    pose proof (SDNA_no_empty _ Hs r Hr) as Hne.
    exists (lo r), r. split; [exact Hr | unfold inr; lia].
  - intros [(l0 & r0 & Hr0 & _) H]. apply contains_range_exists.
    destruct (N.lt_ge_cases b a) as [Hlt|Hge]; [exists r0; auto|].
    destruct (SDNA_interval ns a b Hs Hge H) as (r & Hr & H1 & H2).
    exists r. split; [exact Hr | right; lia].
Qed.

Lemma filter_nonempty_U rs l : U (filter (fun r => negb (is_empty r)) rs) l <-> U rs l.
Proof.
  induction rs as [|a rs IH]; cbn [filter]; [reflexivity|].
  destruct (is_empty_spec a) as [Ea|Ea]; cbn [negb]; rewrite !U_cons, IH; [|reflexivity].
  split; [intros H; right; exact H | intros [H|H]; [unfold inr in H; lia | exact H]].
Qed.

Lemma filter_nonempty_id rs : no_empty rs -> filter (fun r => negb (is_empty r)) rs = rs.
Proof.
  induction rs as [|a rs IH]; intros Hne; cbn [filter]; [reflexivity|].
  apply no_empty_cons in Hne as [Ha Hne]. apply is_empty_false in Ha. rewrite Ha.
  cbn [negb]. f_equal. apply IH, Hne.
Qed.

Lemma fixed_same_set_l rs l : U (normalize_fixed rs) l <-> U rs l.
Proof. unfold normalize_fixed. rewrite normalize_same_set_raw. apply filter_nonempty_U. Qed.

Lemma fixed_nf_l rs : SortedDisjointNonAdjacent (normalize_fixed rs).
Proof.
  apply normalize_nf_raw. intros r Hr. apply filter_In in Hr as [_ Hr].
  apply is_empty_false, negb_true_iff, Hr.
Qed.

Lemma fixed_contains_range_union_l rs a b :
  contains_range (normalize_fixed rs) a b = true <->
  (exists l, U rs l) /\ forall l, a <= l <= b -> U rs l.
Proof.
  rewrite (contains_range_nf _ a b (fixed_nf_l rs)). setoid_rewrite fixed_same_set_l.
  reflexivity.
Qed.

Lemma fixed_intersects_union_l rs a b :
  intersects_q (normalize_fixed rs) a b = true <-> exists l, a <= l <= b /\ U rs l.
Proof. rewrite intersects_q_spec. setoid_rewrite fixed_same_set_l. reflexivity. Qed.

Lemma fixed_contains_line_union_l rs l :
  contains_line (normalize_fixed rs) l = true <-> U rs l.
Proof. rewrite contains_line_spec. apply fixed_same_set_l. Qed.

Lemma fixed_agrees_l rs : no_empty rs -> normalize_fixed rs = normalize rs.
Proof. intros Hne. unfold normalize_fixed. rewrite (filter_nonempty_id _ Hne). reflexivity. Qed.

Lemma fixed_idem_l rs : normalize_fixed (normalize_fixed rs) = normalize_fixed rs.
Proof.
  pose proof (fixed_nf_l rs) as Hs.
  rewrite (fixed_agrees_l _ (SDNA_no_empty _ Hs)). apply normalize_fixpoint, Hs.
Qed.

(* [normalize_ranges] is [normalize_fixed] (Model.v), so what is stated of it for vectors without empty
   ranges holds of every vector; the hypothesis is that of the statements in Props.v, and only
   [contains_range_empty_query_l] uses it. *)

Lemma normalize_nf_l rs : no_empty rs -> SortedDisjointNonAdjacent (normalize_ranges rs).
Proof. intros _. apply fixed_nf_l. Qed.

Lemma contains_range_union_l rs a b :
  no_empty rs ->
  (contains_range (normalize_ranges rs) a b = true <->
   (exists l, U rs l) /\ forall l, a <= l <= b -> U rs l).
Proof. intros _. apply fixed_contains_range_union_l. Qed.

Lemma contains_range_union_nonempty_query_l rs a b :
  no_empty rs -> a <= b ->
  (contains_range (normalize_ranges rs) a b = true <-> forall l, a <= l <= b -> U rs l).
Proof.
  intros _ Hab. rewrite (fixed_contains_range_union_l rs a b). split.
  - intros [_ H]. exact H.
  - intros H. split; [|exact H]. exists a. apply H. lia.
Qed.

Lemma contains_range_empty_query_l rs a b :
  no_empty rs -> b < a ->
  (contains_range (normalize_ranges rs) a b = true <-> rs <> []).
Proof.
  intros Hne Hab. rewrite (fixed_contains_range_union_l rs a b). split.
  - intros [(l & r & Hr & _) _] ->. destruct Hr.
  - intros Hnil. split; [|intros l Hl; exfalso; lia].
    destruct rs as [|r rs]; [congruence|].
    exists (lo r), r. split; [left; reflexivity|].
    apply no_empty_cons in Hne as [Hr _]. unfold inr. lia.
Qed.

Lemma union_extensional_l rs rs' :
  no_empty rs -> no_empty rs' -> (forall l, U rs l <-> U rs' l) ->
  forall a b,
    contains_range (normalize_ranges rs) a b = contains_range (normalize_ranges rs') a b
    /\ intersects_q (normalize_ranges rs) a b = intersects_q (normalize_ranges rs') a b
    /\ contains_line (normalize_ranges rs) a = contains_line (normalize_ranges rs') a.
Proof.
  intros _ _ HU a b. split; [|split]; apply eq_true_iff_eq.
  - rewrite !(fixed_contains_range_union_l _ a b). setoid_rewrite HU. reflexivity.
  - rewrite !(fixed_intersects_union_l _ a b). setoid_rewrite HU. reflexivity.
  - rewrite !(fixed_contains_line_union_l _ a). apply HU.
Qed.

Lemma nr_idem : forall rs, normalize_ranges (normalize_ranges rs) = normalize_ranges rs.
Proof. exact fixed_idem_l. Qed.

Lemma frm_all canon p : file_range_matches fl_all canon p = true.
Proof. reflexivity. Qed.

Lemma frm_uncanonical m p : file_range_matches (from_ranges m) None p = false.
Proof. reflexivity. Qed.

Lemma frm_named m f p :
  file_range_matches (from_ranges m) (Some f) p
  = match map_get m f with
    | Some rs => existsb p (normalize_ranges rs)
    | None => false
    end.
Proof.
  unfold file_range_matches, from_ranges.
  induction m as [|[k rs] m IH]; cbn [map map_get fst snd]; [reflexivity|].
  destruct (k =? f); [reflexivity | exact IH].
Qed.

Lemma empty_selects_nothing_l :
  (forall canon l a b q,
      fl_contains_line fl_all canon l = true
      /\ fl_contains_range fl_all canon a b = true
      /\ fl_intersects fl_all canon q = true)
  /\ (forall canon l a b q,
      fl_contains_line (from_ranges []) canon l = false
      /\ fl_contains_range (from_ranges []) canon a b = false
      /\ fl_intersects (from_ranges []) canon q = false)
  /\ (forall m f l a b q,
      map_get m f = None ->
      fl_contains_line (from_ranges m) (Some f) l = false
      /\ fl_contains_range (from_ranges m) (Some f) a b = false
      /\ fl_intersects (from_ranges m) (Some f) q = false)
  /\ (forall m l a b q,
      fl_contains_line (from_ranges m) None l = false
      /\ fl_contains_range (from_ranges m) None a b = false
      /\ fl_intersects (from_ranges m) None q = false).
Proof.
  unfold fl_contains_line, fl_contains_range, fl_intersects. split; [|split; [|split]].
  - intros canon l a b q. rewrite !frm_all. auto.
  - intros [f|] l a b q; rewrite ?frm_named, ?frm_uncanonical; auto.
  - intros m f l a b q H. rewrite !frm_named, H. auto.
  - intros m l a b q. rewrite !frm_uncanonical. auto.
Qed.

Lemma empty_ranges_select_nothing_l : forall m f rs l a b,
  map_get m f = Some rs -> (forall l', ~ U rs l') ->
  fl_contains_line (from_ranges m) (Some f) l = false
  /\ fl_intersects (from_ranges m) (Some f) (MkRange a b) = false
  /\ (a <= b -> fl_contains_range (from_ranges m) (Some f) a b = false).
Proof.
  intros m f rs l a b Hget Hno.
  unfold fl_contains_line, fl_intersects, fl_contains_range. rewrite !frm_named, Hget.
  split; [|split; [|intros Hab]]; apply not_true_iff_false; intros H.
  - apply fixed_contains_line_union_l in H. exact (Hno l H).
  - apply (fixed_intersects_union_l rs a b) in H as (l' & _ & H). exact (Hno l' H).
  - apply (Hno a), fixed_same_set_l, (contains_range_sound _ a b H). lia.
Qed.

Lemma file_queries_union_l : forall m f rs,
  map_get m f = Some rs ->
  (forall l, fl_contains_line (from_ranges m) (Some f) l = true <-> U rs l)
  /\ (forall a b, fl_intersects (from_ranges m) (Some f) (MkRange a b) = true
                  <-> exists l, a <= l <= b /\ U rs l)
  /\ (no_empty rs -> forall a b,
        fl_contains_range (from_ranges m) (Some f) a b = true
        <-> (exists l, U rs l) /\ forall l, a <= l <= b -> U rs l).
Proof.
  intros m f rs Hget.
  unfold fl_contains_line, fl_intersects, fl_contains_range.
  split; [|split]; intros; rewrite frm_named, Hget.
  - apply fixed_contains_line_union_l.
  - apply fixed_intersects_union_l.
  - apply fixed_contains_range_union_l.
Qed.

(* Refutations for [normalize], the code before the repair: an empty range
   sorted between two overlapping ones keeps them from being merged *)

Definition empty_between : list range := [MkRange 1 5; MkRange 3 2; MkRange 4 8].

Lemma normalize_empty_between : normalize empty_between = empty_between.
Proof. vm_compute. reflexivity. Qed.

Lemma normalize_nf_refuted_l : exists rs, ~ SortedDisjointNonAdjacent (normalize rs).
Proof.
  exists empty_between. rewrite normalize_empty_between. unfold empty_between.
  cbn [SortedDisjointNonAdjacent lo hi]. intros (_ & H & _). lia.
Qed.

Lemma normalize_overlap_refuted_l :
  exists rs r r' l, In r (normalize rs) /\ In r' (normalize rs) /\ r <> r'
                    /\ inr r l /\ inr r' l.
Proof.
  exists empty_between, (MkRange 1 5), (MkRange 4 8), 4. rewrite normalize_empty_between.
  unfold inr. cbn [lo hi].
  split; [left; reflexivity|]. split; [right; right; left; reflexivity|].
  split; [discriminate | lia].
Qed.

Lemma contains_range_union_refuted_l :
  exists rs a b, a <= b /\ (forall l, a <= l <= b -> U rs l)
                 /\ contains_range (normalize rs) a b = false.
Proof.
  exists empty_between, 2, 7. split; [lia|]. split; [|vm_compute; reflexivity].
  intros l Hl. unfold empty_between. rewrite !U_cons. unfold inr. cbn [lo hi]. lia.
Qed.
