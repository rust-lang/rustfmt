(* C17/Examples.v — non-vacuity of the hypotheses used in Props.v, and the
   refutation witnesses evaluated. *)
From V Require Import Base.Text C17.Model C17.Lemmas C17.Run.
From Coq Require Import Permutation Sorted.
Local Open Scope N_scope.

Notation R := MkRange.

(* Range-level: both directions of each specification are inhabited *)
Example ex_intersects_true : intersects (R 1 5) (R 4 8) = true /\ inr (R 1 5) 4 /\ inr (R 4 8) 4.
Proof. split; [vm_compute; reflexivity|]. unfold inr; cbn [lo hi]. lia. Qed.
Example ex_intersects_touch : intersects (R 1 5) (R 5 5) = true.
Proof. vm_compute. reflexivity. Qed.
Example ex_intersects_false : intersects (R 1 5) (R 6 8) = false.
Proof. vm_compute. reflexivity. Qed.
Example ex_intersects_empty : intersects (R 1 5) (R 3 2) = false /\ intersects (R 3 2) (R 1 5) = false.
Proof. vm_compute. split; reflexivity. Qed.
Example ex_contains_true : contains (R 1 8) (R 2 7) = true.
Proof. vm_compute. reflexivity. Qed.
Example ex_contains_empty_other : contains (R 9 9) (R 3 2) = true /\ contains (R 5 4) (R 3 2) = true.
Proof. vm_compute. split; reflexivity. Qed.
Example ex_contains_false : contains (R 1 5) (R 2 7) = false /\ contains (R 5 4) (R 5 5) = false.
Proof. vm_compute. split; reflexivity. Qed.
Example ex_adjacent_true : adjacent_to (R 1 3) (R 4 6) = true /\ adjacent_to (R 4 6) (R 1 3) = true.
Proof. vm_compute. split; reflexivity. Qed.
Example ex_adjacent_false : adjacent_to (R 1 3) (R 5 6) = false /\ adjacent_to (R 1 3) (R 3 6) = false
                            /\ adjacent_to (R 3 2) (R 3 6) = false.
Proof. vm_compute. repeat split; reflexivity. Qed.

(* merge_spec: hypothesis merge a b = Some c met by adjacency and by overlap *)
Example ex_merge_adjacent : merge (R 1 3) (R 4 6) = Some (R 1 6).
Proof. vm_compute. reflexivity. Qed.
Example ex_merge_overlap : merge (R 1 5) (R 3 8) = Some (R 1 8).
Proof. vm_compute. reflexivity. Qed.
Example ex_merge_nested : merge (R 1 9) (R 3 4) = Some (R 1 9).
Proof. vm_compute. reflexivity. Qed.
Example ex_merge_none : merge (R 1 3) (R 5 6) = None /\ merge (R 1 5) (R 3 2) = None.
Proof. vm_compute. split; reflexivity. Qed.

(* sort: a non-trivial instance, ties on lo broken by hi, duplicates kept *)
Example ex_sort :
  sort_ranges [R 4 8; R 1 9; R 4 2; R 1 2; R 4 8] = [R 1 2; R 1 9; R 4 2; R 4 8; R 4 8].
Proof. vm_compute. reflexivity. Qed.
Example ex_sort_unique_hyp :
  Permutation [R 1 2; R 4 8] [R 4 8; R 1 2] /\ StronglySorted range_le [R 1 2; R 4 8].
Proof.
  split; [apply perm_swap|].
  apply SSorted_cons; [apply SSorted_cons; [apply SSorted_nil | apply Forall_nil]|].
  apply Forall_cons; [|apply Forall_nil]. unfold range_le; cbn [lo hi]. lia.
Qed.

(* normalize_nf / contains_range_union / union_extensional: no_empty is
   met by a selection with aligned, overlapping, adjacent and nested ranges,
   and normalisation is not the identity on it *)
Definition sel : list range := [R 10 12; R 4 8; R 1 2; R 3 3; R 11 20; R 30 31].

Example ex_no_empty : no_empty sel.
Proof.
  intros r Hr. unfold sel in Hr. cbn [In] in Hr.
  destruct Hr as [<-|[<-|[<-|[<-|[<-|[<-|[]]]]]]]; cbn [lo hi]; lia.
Qed.
Example ex_normalize : normalize_ranges sel = [R 1 8; R 10 20; R 30 31].
Proof. vm_compute. reflexivity. Qed.
Example ex_nf : SortedDisjointNonAdjacent [R 1 8; R 10 20; R 30 31].
Proof. cbn [SortedDisjointNonAdjacent lo hi]. lia. Qed.
Example ex_not_nf_overlap : ~ SortedDisjointNonAdjacent [R 1 5; R 4 8].
Proof. cbn [SortedDisjointNonAdjacent lo hi]. lia. Qed.
Example ex_not_nf_adjacent : ~ SortedDisjointNonAdjacent [R 1 3; R 4 8].
Proof. cbn [SortedDisjointNonAdjacent lo hi]. lia. Qed.

(* a query cutting through three input ranges that were merged: true, and
   the right-hand side of contains_range_union holds for it *)
Example ex_contains_range_merged : contains_range (normalize_ranges sel) 2 7 = true.
Proof. vm_compute. reflexivity. Qed.
Example ex_contains_range_rhs : (exists l, U sel l) /\ forall l, 2 <= l <= 7 -> U sel l.
Proof.
  apply (contains_range_union_l sel 2 7 ex_no_empty). exact ex_contains_range_merged.
Qed.
(* a query over a gap (line 9 is not selected): false *)
Example ex_contains_range_gap : contains_range (normalize_ranges sel) 8 10 = false.
Proof. vm_compute. reflexivity. Qed.
(* empty query: true on a non-empty selection, false on no ranges *)
Example ex_contains_range_empty_query :
  contains_range (normalize_ranges sel) 9 8 = true /\ contains_range (normalize_ranges []) 9 8 = false.
Proof. vm_compute. split; reflexivity. Qed.
Example ex_intersects_q : intersects_q (normalize_ranges sel) 9 10 = true
                          /\ intersects_q (normalize_ranges sel) 21 29 = false
                          /\ intersects_q (normalize_ranges sel) 40 50 = false.
Proof. vm_compute. repeat split; reflexivity. Qed.
Example ex_contains_line : contains_line (normalize_ranges sel) 3 = true
                           /\ contains_line (normalize_ranges sel) 9 = false.
Proof. vm_compute. split; reflexivity. Qed.

(* union_extensional: two different selections with the same lines *)
Definition sel' : list range := [R 30 31; R 1 8; R 10 20].
Example ex_same_lines_hyp : no_empty sel' /\ normalize_ranges sel' = normalize_ranges sel.
Proof.
  split; [|vm_compute; reflexivity].
  intros r Hr. unfold sel' in Hr. cbn [In] in Hr.
  destruct Hr as [<-|[<-|[<-|[]]]]; cbn [lo hi]; lia.
Qed.
Example ex_same_lines : forall l, U sel l <-> U sel' l.
Proof.
  intros l. transitivity (U (normalize_ranges sel) l); [symmetry; apply fixed_same_set_l|].
  destruct ex_same_lines_hyp as [_ <-]. apply fixed_same_set_l.
Qed.

Example ex_witness_fixpoint : normalize [R 1 5; R 3 2; R 4 8] = [R 1 5; R 3 2; R 4 8].
Proof. exact normalize_empty_between. Qed.
Example ex_witness_without_empty : normalize [R 1 5; R 4 8] = [R 1 8].
Proof. vm_compute. reflexivity. Qed.
Example ex_witness_queries :
  let ns := normalize [R 1 5; R 3 2; R 4 8] in
  map (fun q => (contains_range ns (fst q) (snd q), intersects_q ns (fst q) (snd q),
                 contains_line ns (fst q))) [(1,8);(2,7);(6,6)]
  = [(false,true,true);(false,true,true);(true,true,true)].
Proof. vm_compute. reflexivity. Qed.
Example ex_witness_fixed : normalize_fixed [R 1 5; R 3 2; R 4 8] = [R 1 8]
  /\ contains_range (normalize_fixed [R 1 5; R 3 2; R 4 8]) 2 7 = true.
Proof. vm_compute. split; reflexivity. Qed.
(* an all-empty vector still answers an empty query range true (code as it is) *)
Example ex_empty_vs_empty : contains_range (normalize [R 3 2]) 5 4 = true
  /\ contains_range (normalize_fixed [R 3 2]) 5 4 = false.
Proof. vm_compute. split; reflexivity. Qed.
(* an empty range elsewhere is harmless for merging but stays in the vector *)
Example ex_empty_kept : normalize [R 9 2; R 1 5; R 4 8] = [R 1 8; R 9 2].
Proof. vm_compute. reflexivity. Qed.
(* fixed_agrees: its hypothesis is met by sel, and the two variants differ elsewhere *)
Example ex_fixed_differs : normalize_fixed [R 9 2; R 1 5] <> normalize [R 9 2; R 1 5].
Proof. vm_compute. discriminate. Qed.

(* FileLines: hypotheses of empty_selects_nothing, empty_ranges_select_nothing,
   file_queries_union *)
Definition fm : file_map := [(7, sel); (8, [R 3 2; R 9 1]); (9, [])].
Example ex_absent : map_get fm 5 = None.
Proof. vm_compute. reflexivity. Qed.
Example ex_present : map_get fm 7 = Some sel.
Proof. vm_compute. reflexivity. Qed.
Example ex_only_empty : map_get fm 8 = Some [R 3 2; R 9 1] /\ forall l, ~ U [R 3 2; R 9 1] l.
Proof.
  split; [vm_compute; reflexivity|].
  intros l. rewrite !U_cons, U_nil. unfold inr. cbn [lo hi]. lia.
Qed.
Example ex_file_queries :
  run_file_queries [(7, [(10,12);(4,8);(1,2);(3,3)]); (8, [(3,2)])] 7 true [(2,7);(9,9);(8,10)]
  = [(true,true,true);(false,false,false);(false,true,true)]
  /\ run_file_queries [(7, [(10,12);(4,8);(1,2);(3,3)]); (8, [(3,2)])] 8 true [(2,7);(3,3)]
  = [(false,false,false);(false,false,false)]
  /\ run_file_queries [(7, [(10,12);(4,8)])] 5 true [(2,7);(3,2)] = [(false,false,false);(false,false,false)]
  /\ run_file_queries [(7, [(10,12);(4,8)])] 7 false [(4,8)] = [(false,false,false)].
Proof. vm_compute. repeat split; reflexivity. Qed.
