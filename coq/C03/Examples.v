(* C03/Examples.v — non-vacuity: concrete values meeting the hypotheses of the
   implications of Props.v, the witnesses of the refuted statements, and the
   unit tests of comment.rs. *)
From Coq Require Import String Ascii.
From V Require Import Base.Text C03.Model C03.Lemmas.
Open Scope string_scope.
Open Scope list_scope.
Open Scope N_scope.

(* an ASCII string literal as a text; \n is written with [nl] *)
Definition T (s : string) : text := map N_of_ascii (list_ascii_of_string s).
Definition nl : text := [LF].
Definition e_acute : char := 233.

(* ---- the unit tests of comment.rs (1847-1899) ---- *)
Example rs_char_classes : classify (T "//" ++ nl ++ nl) =
  [(KStartComment, SLASH); (KInComment, SLASH); (KEndComment, LF); (KNormal, LF)].
Proof. vm_compute. reflexivity. Qed.
Example rs_comment_code_slices : slices (T "code(); /* test */ 1 + 1") =
  [Some (CNormal, 0%nat, T "code(); "); Some (CComment, 8%nat, T "/* test */"); Some (CNormal, 18%nat, T " 1 + 1")].
Proof. vm_compute. reflexivity. Qed.
Example rs_comment_code_slices_two : slices (T "// comment" ++ nl ++ T "    test();") =
  [Some (CNormal, 0%nat, []); Some (CComment, 0%nat, T "// comment" ++ nl); Some (CNormal, 11%nat, T "    test();")].
Proof. vm_compute. reflexivity. Qed.
Example rs_comment_code_slices_three :
  slices (T "1 // comment" ++ nl ++ T "    // comment2" ++ nl ++ nl) =
  [Some (CNormal, 0%nat, T "1 "); Some (CComment, 2%nat, T "// comment" ++ nl ++ T "    // comment2" ++ nl);
   Some (CNormal, 29%nat, nl)].
Proof. vm_compute. reflexivity. Qed.

(* ---- classify_start_comment, classify_kinds ---- *)
Example ex_start_comment : classify (T "a//b") =
  [(KNormal, 97)] ++ (KStartComment, SLASH) :: [(KInComment, SLASH); (KInComment, 98)].
Proof. vm_compute. reflexivity. Qed.
(* all six kinds occur: a string, a block comment with a string inside *)
Example ex_kinds : map fst (classify (T "x""s""/*""q""*/")) =
  [KNormal; KInString; KInString; KInString; KStartComment; KInComment;
   KInComment; KInStringCommented; KInStringCommented; KInComment; KEndComment].
Proof. vm_compute. reflexivity. Qed.
(* lifetimes and char literals: the quote look-ahead *)
Example ex_lifetime : map fst (classify (T "'a //")) = [KNormal; KNormal; KNormal; KStartComment; KInComment].
Proof. vm_compute. reflexivity. Qed.
Example ex_char_lit : map fst (classify (T "'/'//")) = [KNormal; KNormal; KNormal; KStartComment; KInComment].
Proof. vm_compute. reflexivity. Qed.
Example ex_raw_string : map fst (classify (T "r#""//""#/**/")) =
  [KInString; KInString; KInString; KInString; KInString; KInString; KNormal;
   KStartComment; KInComment; KInComment; KEndComment].
Proof. vm_compute. reflexivity. Qed.

(* ---- ungrouped: partition, byte offsets, shapes ---- *)
Definition t_ung : text := e_acute :: T "/*c*/x//d".
Example ex_ungrouped : ungrouped t_ung =
  [Some (CNormal, 0%nat, [e_acute])] ++ Some (CComment, 2%nat, T "/*c*/") ::
  [Some (CNormal, 7%nat, T "x"); Some (CComment, 8%nat, T "//d")].
Proof. vm_compute. reflexivity. Qed.
Example ex_ungrouped_offset : 2%nat = blen (items_text [Some (CNormal, 0%nat, [e_acute])]).
Proof. vm_compute. reflexivity. Qed.
Example ex_ungrouped_in : In (Some (CComment, 2%nat, T "/*c*/")) (ungrouped t_ung).
Proof. vm_compute. auto. Qed.
Example ex_ungrouped_closed : in_block_comment (final_status t_ung) = false.
Proof. vm_compute. reflexivity. Qed.
(* two adjacent comments are two ungrouped slices *)
Example ex_ungrouped_adjacent : map strip (ungrouped (T "/**//**/")) =
  [Some (CComment, T "/**/"); Some (CComment, T "/**/")].
Proof. vm_compute. reflexivity. Qed.

(* ---- grouped: partition, offsets, alternation, connectors ---- *)
Definition t_grp : text := T "a // x" ++ nl ++ T "  // y" ++ nl ++ T "  b".
Example ex_slices : slices t_grp =
  [Some (CNormal, 0%nat, T "a ")] ++ Some (CComment, 2%nat, T "// x" ++ nl ++ T "  // y" ++ nl) ::
  [Some (CNormal, 14%nat, T "  b")].
Proof. vm_compute. reflexivity. Qed.
Example ex_slices_in : In (Some (CComment, 2%nat, T "// x" ++ nl ++ T "  // y" ++ nl)) (slices t_grp).
Proof. vm_compute. auto. Qed.
(* trailing blanks of a final line comment are given to the next Normal slice *)
Example ex_slices_trailing : map strip (slices (T "// a  ")) =
  [Some (CNormal, []); Some (CComment, T "// a"); Some (CNormal, T "  ")].
Proof. vm_compute. reflexivity. Qed.

(* ---- changed_iff, changed_spec, net_sound, net_spec ---- *)
Definition c_src : text := T "f(a, /* x */ b)".
Definition c_new_ok : text := T "f(a, /*   x" ++ nl ++ T "     */ b)".
Definition c_new_lost : text := T "f(a, b)".
Example ex_payload_ok : payload_ok c_src = true /\ payload_ok c_new_ok = true /\ payload_ok c_new_lost = true.
Proof. vm_compute. auto. Qed.
Example ex_payload_eq : payload c_src = payload c_new_ok /\ payload c_src = T "x".
Proof. vm_compute. auto. Qed.
Example ex_changed_false : changed c_src c_new_ok = Some false.
Proof. vm_compute. reflexivity. Qed.
Example ex_changed_true : changed c_src c_new_lost = Some true.
Proof. vm_compute. reflexivity. Qed.
Example ex_recover_keeps_new : recover c_new_ok c_src = Some c_new_ok.
Proof. vm_compute. reflexivity. Qed.
Example ex_recover_restores_src : recover c_new_lost c_src = Some c_src.
Proof. vm_compute. reflexivity. Qed.
Example ex_closed : in_block_comment (final_status c_src) = false.
Proof. vm_compute. reflexivity. Qed.

(* ---- payload_detects_loss ---- *)
Example ex_loss_hyps :
  payload_ok c_src = true /\
  In (Some (CComment, 5%nat, T "/* x */")) (ungrouped c_src) /\
  remove_comment_header (T "/* x */") = Some (T " x ") /\
  In 120 (T " x ") /\ is_whitespace 120 = false /\ 120 <> STAR /\
  no_comment_slice c_new_lost.
Proof.
  split; [vm_compute; reflexivity|]. split; [vm_compute; auto|]. split; [vm_compute; reflexivity|].
  split; [vm_compute; auto|]. split; [reflexivity|]. split; [discriminate|].
  intros o s H. vm_compute in H. destruct H as [H|[]]. discriminate H.
Qed.
Example ex_loss_detected : changed c_src c_new_lost = Some true.
Proof.
  destruct ex_loss_hyps as (H1 & H2 & H3 & H4 & H5 & H6 & H7).
  exact (payload_detects_loss _ _ _ _ _ _ H1 H2 H3 H4 H5 H6 H7).
Qed.

(* ---- the trivial comments, whose loss is not detected ---- *)
Example ex_trivial :
  map (fun s => changed s []) [T "/**/"; T "//"; T "//" ++ nl; T "///"; T "//!  "; T "/*!*/"; T "/***/";
                               T "/*" ++ nl ++ T " * " ++ nl ++ T " */"; T "/*  " ++ nl ++ T "*" ++ nl ++ T "* */"] =
  [Some false; Some false; Some false; Some false; Some false; Some false; Some false; Some false; Some false].
Proof. vm_compute. reflexivity. Qed.
(* a star on the first line, two stars in a row, or a fourth slash are payload *)
Example ex_not_trivial :
  map (fun s => changed s []) [T "/* * */"; T "/****/"; T "////"; T "/*" ++ nl ++ T "**" ++ nl ++ T "*/"] =
  [Some true; Some true; Some true; Some true].
Proof. vm_compute. reflexivity. Qed.
Example ex_trivial_hyps :
  let src := T "a /*" ++ nl ++ T " * " ++ nl ++ T " */ b //" ++ nl in
  payload_ok src = true /\
  (forall o s, In (Some (CComment, o, s)) (ungrouped src) -> comment_reducer s = Some []) /\
  no_comment_slice (T "a  b ").
Proof.
  cbv zeta. split; [vm_compute; reflexivity|]. split.
  - intros o s H. vm_compute in H.
    destruct H as [H|[H|[H|[H|[]]]]]; try discriminate H; injection H as _ <-; vm_compute; reflexivity.
  - intros o s H. vm_compute in H. destruct H as [H|[]]. discriminate H.
Qed.
Example ex_trivial_block : trivial_block (block_body (nl ++ T " * " ++ nl ++ T " ")).
Proof. vm_compute. auto 10. Qed.
Example ex_trivial_line : Forall (fun c => is_whitespace c = true) (line_body (T "!  ")).
Proof. change (line_body (T "!  ")) with [SP; SP]. repeat constructor. Qed.

(* ---- payload_insensitive_trailing_blanks ---- *)
Example ex_trailing_hyps :
  let a := T "x " in let p := T " a" in let q := T " b */ y" in let w := T "  " ++ [TAB] in
  classify (a ++ SLASH :: STAR :: p ++ LF :: q) =
    [(KNormal, 120); (KNormal, 32)] ++ (KStartComment, SLASH) ::
    [(KInComment, STAR); (KInComment, 32); (KInComment, 97)] ++
    [(KInComment, LF); (KInComment, 32); (KInComment, 98); (KInComment, 32); (KInComment, STAR);
     (KEndComment, SLASH); (KNormal, 32); (KNormal, 121)] /\
  Forall inside_item [(KInComment, STAR); (KInComment, 32); (KInComment, 97)] /\
  Forall blank w /\
  in_block_comment (final_status (a ++ SLASH :: STAR :: p ++ LF :: q)) = false.
Proof.
  cbv zeta. split; [vm_compute; reflexivity|]. split; [repeat constructor|].
  split; [|vm_compute; reflexivity].
  repeat constructor; discriminate.
Qed.
Example ex_trailing :
  payload_stream (T "x /* a  " ++ [TAB] ++ nl ++ T " b */ y") = payload_stream (T "x /* a" ++ nl ++ T " b */ y").
Proof.
  destruct ex_trailing_hyps as (H1 & H2 & H3 & H4).
  exact (payload_trailing_blanks (T "x ") STAR (T " a") (T "  " ++ [TAB]) (T " b */ y") _ _ _ H1 eq_refl eq_refl H2 H3 H4).
Qed.
(* in a line comment *)
Example ex_trailing_line :
  payload_stream (T "// a  " ++ nl ++ T "y") = payload_stream (T "// a" ++ nl ++ T "y") /\
  payload (T "// a  " ++ nl ++ T "y") = T "a".
Proof. vm_compute. auto. Qed.

(* ---- payload_insensitive_reindent ---- *)
Example ex_reindent_hyps :
  let a := T "x " in let p := T " a" in let q := T "* b */ y" in let w := T "    " in
  classify (a ++ SLASH :: STAR :: p ++ LF :: q) =
    [(KNormal, 120); (KNormal, 32)] ++ (KStartComment, SLASH) ::
    [(KInComment, STAR); (KInComment, 32); (KInComment, 97); (KInComment, LF)] ++
    [(KInComment, STAR); (KInComment, 32); (KInComment, 98); (KInComment, 32); (KInComment, STAR);
     (KEndComment, SLASH); (KNormal, 32); (KNormal, 121)] /\
  Forall inside_item [(KInComment, STAR); (KInComment, 32); (KInComment, 97); (KInComment, LF)] /\
  Forall blank w /\
  in_block_comment (final_status (a ++ SLASH :: STAR :: p ++ LF :: q)) = false.
Proof.
  cbv zeta. split; [vm_compute; reflexivity|]. split; [repeat constructor|].
  split; [|vm_compute; reflexivity].
  repeat constructor; discriminate.
Qed.
Example ex_reindent :
  payload_stream (T "x /* a" ++ nl ++ T "    * b */ y") = payload_stream (T "x /* a" ++ nl ++ T "* b */ y").
Proof.
  destruct ex_reindent_hyps as (H1 & H2 & H3 & H4).
  exact (payload_reindent (T "x ") (T " a") (T "    ") (T "* b */ y") _ _ _ H1 eq_refl eq_refl H2 H3 H4).
Qed.

(* ---- witnesses of the refuted statements ---- *)
(* an unterminated block comment makes remove_comment_header slice out of range *)
Example ex_changed_panics : changed (T "/*") [] = None /\ changed (T "a /*!") (T "a") = None /\
                            remove_comment_header (T "/*") = None.
Proof. vm_compute. auto. Qed.
(* ... or silently lose the last two chars *)
Example ex_unterminated_chop : payload (T "/* abc") = T "a" /\ payload_ok (T "/* abc") = true.
Proof. vm_compute. auto. Qed.
(* a star in the middle of a later line of a block comment is not payload *)
Example ex_mid_line_star : changed (T "/*" ++ nl ++ T " a*b */") (T "/*" ++ nl ++ T " ab */") = Some false /\
                           payload (T "/*" ++ nl ++ T " a*b */") = T "ab" /\
                           payload (T "/* a*b */") = T "a*b".
Proof. vm_compute. auto. Qed.
(* merged words *)
Example ex_words_merged : changed (T "// a b" ++ nl) (T "// ab" ++ nl) = Some false.
Proof. vm_compute. reflexivity. Qed.
(* the raw-identifier quirk of the classifier (arms marked Unreachable in the code are reachable) *)
Example ex_raw_ident : map fst (classify (T "r#abc")) = [KInString; KInString; KInString; KNormal; KNormal].
Proof. vm_compute. reflexivity. Qed.
