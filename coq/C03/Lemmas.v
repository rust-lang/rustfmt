(* The list the classifier produces obeys the grammar [kc_wf] ([step_sim]); the two slice iterators
   are followed over any list that obeys the grammar, not over the statuses.
   For whitespace the safety net does not see, the classification of a text with blanks put into
   a comment is computed from that of the text without them ([insert_classify]), and the reducer
   is compared on the one comment that differs ([payload_insert], [comment_reducer_insert]). *)
From V Require Import Base.Text C03.Model.
Local Open Scope nat_scope.
Arguments N.add : simpl never.
Arguments N.sub : simpl never.
Arguments N.mul : simpl never.
Arguments N.ltb : simpl never.
Arguments N.leb : simpl never.
Arguments N.eqb : simpl never.
Arguments Nat.eqb : simpl never.

(* The notions in which Props.v states the property.  Everything after them is proof. *)

(* the invariant under which a call of next cannot panic ([step_ok]) *)
Definition st_ok (st : status) (r : text) : Prop :=
  match st with
  | SRawStringSuffix n => n <> 0
  | SBlockComment d | SStringInBlockComment d => d <> 0
  | SBlockCommentOpening d => d <> 0 /\ exists r', r = STAR :: r'
  | SBlockCommentClosing d => exists r', r = SLASH :: r'
  | _ => True
  end.

(* where the classifier is, seen from the kinds it has produced *)
Inductive wst : Type :=
| WCode
| WLine
| WOpen                       (* after the slash of a top-level block comment opener *)
| WBlock (prev_star : bool).

Fixpoint kc_wf (Fin : wst -> Prop) (w : wst) (l : list (kind * char)) : Prop :=
  match l with
  | [] => Fin w
  | (k, c) :: l' =>
      match w, k with
      | WCode, KNormal => kc_wf Fin WCode l'
      | WCode, KInString => kc_wf Fin WCode l'
      | WCode, KStartComment =>
          c = SLASH /\
          ((exists l'', l' = (KInComment, SLASH) :: l'') /\ kc_wf Fin WLine l' \/
           (exists l'', l' = (KInComment, STAR) :: l'') /\ kc_wf Fin WOpen l')
      | WLine, KInComment => c <> LF /\ kc_wf Fin WLine l'
      | WLine, KEndComment => c = LF /\ kc_wf Fin WCode l'
      | WOpen, KInComment => c = STAR /\ kc_wf Fin (WBlock false) l'
      | WBlock p, KInComment => kc_wf Fin (WBlock (c =? STAR)%N) l'
      | WBlock p, KInStringCommented => kc_wf Fin (WBlock (c =? STAR)%N) l'
      | WBlock p, KEndComment => p = true /\ c = SLASH /\ kc_wf Fin WCode l'
      | _, _ => False
      end
  end.

Definition fin_any (w : wst) : Prop := True.
Definition fin_closed (w : wst) : Prop := match w with WCode | WLine => True | _ => False end.

Definition item_text (it : option slice_item) : text :=
  match it with Some (_, _, s) => s | None => [] end.
Definition items_text (items : list (option slice_item)) : text := concat (map item_text items).

Definition line_comment (s : text) : Prop := exists b, s = SLASH :: SLASH :: b.
Definition closed_block (s : text) : Prop := exists m, s = SLASH :: STAR :: m ++ [STAR; SLASH].
Definition open_block (s : text) : Prop := exists b, s = SLASH :: STAR :: b.
Definition starts2 (s : text) : Prop := exists d r, s = SLASH :: d :: r /\ (d = SLASH \/ d = STAR).

Lemma starts2_iff s : starts2 s <-> line_comment s \/ open_block s.
Proof.
  split.
  - intros (d & r & -> & [->| ->]); [left|right]; exists r; reflexivity.
  - intros [[b ->]|[b ->]]; [exists SLASH, b|exists STAR, b]; auto.
Qed.
Lemma closed_open s : closed_block s -> open_block s.
Proof. intros [m ->]. eexists. reflexivity. Qed.

Fixpoint alternate (k : ckind) (items : list (option slice_item)) : Prop :=
  match items with
  | [] => True
  | None :: _ => False
  | Some (k', _, _) :: rest => k' = k /\ alternate (flip_ckind k) rest
  end.

(* what remove_comment_header keeps of [b] in a line comment //b and of [m] in a block comment /*m*/ *)
Definition line_body (b : text) : text :=
  match b with
  | c :: b' => if (c =? SLASH)%N || (c =? BANG)%N then b' else b
  | [] => []
  end.
Definition block_body (m : text) : text :=
  match m with
  | c :: m' =>
      if (c =? BANG)%N then m'
      else if (c =? STAR)%N then match m' with d :: _ => if (d =? SLASH)%N then m else m' | [] => m' end
      else m
  | [] => []
  end.

(* the block comment bodies whose payload is empty ([reduce_block_nil]) *)
Fixpoint stars_ok (prev_star : bool) (t : text) : Prop :=
  match t with
  | [] => True
  | c :: t' => if is_whitespace c then stars_ok false t'
               else c = STAR /\ prev_star = false /\ stars_ok true t'
  end.
Fixpoint trivial_block (t : text) : Prop :=
  match t with
  | [] => True
  | c :: t' => is_whitespace c = true /\ (if (c =? LF)%N then stars_ok false t' else trivial_block t')
  end.

Definition no_comment_slice (t : text) : Prop :=
  forall o s, ~ In (Some (CComment, o, s)) (ungrouped t).

Definition inside_item (it : kind * char) : Prop := inside_comment (fst it) = true.
Definition blank (c : char) : Prop := is_whitespace c = true /\ c <> LF.
Definition ws (c : char) : Prop := is_whitespace c = true.
Lemma blank_ws w : Forall blank w -> Forall ws w.
Proof. intros H. eapply Forall_impl; [|exact H]. intros c [Hc _]. exact Hc. Qed.

(* for Examples.v *)
Definition strip (it : option slice_item) : option (ckind * text) :=
  match it with Some (k, _, s) => Some (k, s) | None => None end.

Lemma peek_is_true r c : peek_is r c = true -> exists r', r = c :: r'.
Proof.
  destruct r as [|x r']; cbn [peek_is]; [discriminate|].
  intros H. apply N.eqb_eq in H. subst x. exists r'. reflexivity.
Qed.

Lemma is_raw_string_suffix_pos r n : n <> 0 -> is_raw_string_suffix r n = true -> exists r', r = HASH :: r'.
Proof.
  intros Hn. destruct n as [|n]; [congruence|]. clear Hn.
  destruct r as [|x r']; cbn [is_raw_string_suffix]; [discriminate|].
  destruct (N.eqb_spec x HASH) as [->|]; cbv iota; [|discriminate]. intros _. exists r'. reflexivity.
Qed.

Lemma kc_wf_suffix Fin : forall l1 w l2, kc_wf Fin w (l1 ++ l2) -> exists w', kc_wf Fin w' l2.
Proof.
  induction l1 as [|[k c] l1 IH]; intros w l2 H; [exists w; exact H|].
  cbn [app kc_wf] in H.
  (* in each case of the grammar, [H] becomes its last component *)
  destruct w as [| | |pst], k; try contradiction;
    try (destruct H as (_ & [[_ H]|[_ H]]));   (* WCode, KStartComment *)
    try (destruct H as (_ & _ & H));           (* WBlock, KEndComment *)
    try (destruct H as (_ & H));               (* WLine; WOpen *)
    eapply IH; exact H.
Qed.

Definition comment_so_far (w : wst) (pre : text) : Prop :=
  match w with
  | WLine => exists b, pre = SLASH :: SLASH :: b
  | WBlock p => exists m, pre = SLASH :: STAR :: m /\ (p = true -> exists m', m = m' ++ [STAR])
  | _ => False
  end.

Lemma comment_start Fin w c l : kc_wf Fin w ((KStartComment, c) :: l) ->
  c = SLASH /\ exists d l' w', l = (KInComment, d) :: l' /\ (d = SLASH \/ d = STAR) /\
    kc_wf Fin w' l' /\ comment_so_far w' [SLASH; d].
Proof.
  destruct w; cbn [kc_wf]; try contradiction.
  intros [Hc [[[l' ->] H]|[[l' ->] H]]]; (split; [exact Hc|]); cbn [kc_wf] in H; destruct H as [_ H].
  - exists SLASH, l', WLine. split; [reflexivity|]. split; [auto|]. split; [exact H|]. exists []. reflexivity.
  - exists STAR, l', (WBlock false). split; [reflexivity|]. split; [auto|]. split; [exact H|].
    exists []. split; [reflexivity|discriminate].
Qed.

(* a relation: the status does not record whether the previous char was a star,
   except when it is about to close *)
Definition abs_ok (st : status) (w : wst) : Prop :=
  match st with
  | SLineComment => w = WLine
  | SBlockComment _ | SStringInBlockComment _ => exists p, w = WBlock p
  | SBlockCommentOpening _ => w = WOpen \/ exists p, w = WBlock p
  | SBlockCommentClosing _ => w = WBlock true
  | _ => w = WCode
  end.

Lemma abs_ok_total st : exists w, abs_ok st w.
Proof.
  destruct st; cbn [abs_ok]; first [exists WCode; reflexivity | exists WLine; reflexivity | exists (WBlock true); eauto].
Qed.

Definition sim_res (Fin : wst -> Prop) (w : wst) (c : char) (r : text) (o : option (kind * status)) : Prop :=
  match o with
  | Some (k, st') =>
      st_ok st' r /\
      ((forall w', abs_ok st' w' -> kc_wf Fin w' (classify_from st' r)) ->
       kc_wf Fin w ((k, c) :: classify_from st' r))
  | None => False
  end.

Lemma sim_code Fin k st' c r : k = KNormal \/ k = KInString -> abs_ok st' WCode -> st_ok st' r ->
  sim_res Fin WCode c r (Some (k, st')).
Proof. intros [-> | ->] Ha Hok; (split; [exact Hok|]); intros K; exact (K WCode Ha). Qed.

Lemma sim_block Fin p k st' c r : k = KInComment \/ k = KInStringCommented ->
  abs_ok st' (WBlock (c =? STAR)%N) -> st_ok st' r -> sim_res Fin (WBlock p) c r (Some (k, st')).
Proof. intros [-> | ->] Ha Hok; (split; [exact Hok|]); intros K; exact (K _ Ha). Qed.

Ltac case_eqb :=
  match goal with
  | |- context [N.eqb ?a ?b] => destruct (N.eqb_spec a b)
  end.

Ltac code := apply sim_code; [auto | reflexivity | cbv [st_ok]; first [exact I | assumption]].
Ltac block := apply sim_block; [auto | cbn [abs_ok]; eauto | cbv [st_ok]; first [discriminate | assumption]].

Lemma step_sim Fin st c r w : st_ok st (c :: r) -> abs_ok st w -> sim_res Fin w c r (step st c r).
Proof.
  destruct st as [| | |n|n|n| | |d|d|d|d|]; cbn [st_ok abs_ok]; intros Hok Ha; unfold step.
  - (* Normal *)
    subst w.
    case_eqb; [destruct r as [|x r']; [|destruct ((x =? HASH)%N || (x =? DQ)%N)]; code|].
    case_eqb; [code|].
    case_eqb.
    { destruct r as [|x r']; [code|]. case_eqb; [code|].
      destruct r' as [|y r'']; [code|]. case_eqb; code. }
    case_eqb; [|code].
    destruct r as [|x r']; [code|].
    case_eqb.
    { subst c x. split; [split; [discriminate|eauto]|]. intros K. split; [reflexivity|]. right.
      split; [eexists; reflexivity|]. apply K. left. reflexivity. }
    case_eqb; [|code].
    subst c x. split; [exact I|]. intros K. split; [reflexivity|]. left.
    split; [eexists; reflexivity|]. apply K. reflexivity.
  - subst w. case_eqb; [code|]. case_eqb; code.
  - subst w. code.
  - subst w. case_eqb; [|code].
    destruct (Nat.eqb_spec n 0) as [Hn|Hn]; [code|]. destruct (is_raw_string_suffix r n); code.
  - subst w. case_eqb; [code|]. case_eqb; code.
  - subst w. case_eqb; [|code]. destruct n as [|[|n]]; [congruence|code|]. apply sim_code; [auto|reflexivity|discriminate].
  - subst w. case_eqb; [code|]. case_eqb; code.
  - subst w. code.
  - (* BlockComment *)
    destruct Ha as [p ->]. destruct d as [|d']; [congruence|].
    destruct (peek_is r SLASH && (c =? STAR)%N) eqn:E1.
    { apply andb_true_iff in E1. destruct E1 as [E1 Ec]. apply peek_is_true in E1.
      apply sim_block; [auto|rewrite Ec; reflexivity|exact E1]. }
    destruct (peek_is r STAR && (c =? SLASH)%N) eqn:E2.
    { apply andb_true_iff in E2. destruct E2 as [E2 _]. apply peek_is_true in E2.
      apply sim_block; [auto|right; eauto|split; [discriminate|exact E2]]. }
    case_eqb; block.
  - (* StringInBlockComment *)
    destruct Ha as [p ->]. case_eqb; [block|].
    destruct ((c =? STAR)%N && peek_is r SLASH) eqn:E1; [|block].
    apply andb_true_iff in E1. destruct E1 as [Ec E1]. apply peek_is_true in E1.
    destruct d as [|d']; [congruence|]. apply sim_block; [auto|rewrite Ec; reflexivity|exact E1].
  - (* Opening *)
    destruct Hok as [Hd [r' Hr]]. injection Hr as -> ->. rewrite N.eqb_refl.
    destruct Ha as [->|[p ->]]; [|block].
    split; [exact Hd|]. intros K. split; [reflexivity|]. apply K. exists false. reflexivity.
  - (* Closing *)
    destruct Hok as [r' Hr]. injection Hr as -> ->. subst w. rewrite N.eqb_refl.
    destruct d as [|d']; [|block].
    split; [exact I|]. intros K. split; [reflexivity|]. split; [reflexivity|]. apply K. reflexivity.
  - (* LineComment *)
    subst w. case_eqb; (split; [exact I|]); intros K; (split; [assumption|]); apply K; reflexivity.
Qed.

Lemma step_ok st c r : st_ok st (c :: r) ->
  exists k st', step st c r = Some (k, st') /\ st_ok st' r.
Proof.
  intros Hok. destruct (abs_ok_total st) as [w Ha].
  pose proof (step_sim (fun _ => True) st c r w Hok Ha) as S.
  destruct (step st c r) as [[k st']|]; [|destruct S]. exists k, st'. split; [reflexivity|apply S].
Qed.

Lemma step_keeps_ok st c r k st' : st_ok st (c :: r) -> step st c r = Some (k, st') -> st_ok st' r.
Proof.
  intros Hok E. destruct (step_ok st c r Hok) as (k0 & st0 & E0 & H).
  rewrite E in E0. injection E0 as _ <-. exact H.
Qed.

Lemma st_ok_hd st c r r' : st_ok st (c :: r) -> st_ok st (c :: r').
Proof.
  destruct st; cbn [st_ok]; auto.
  - intros [Hd [r0 E]]. injection E as -> _. eauto.
  - intros [r0 E]. injection E as -> _. eauto.
Qed.

Lemma classify_from_cons st c r k st' : step st c r = Some (k, st') ->
  classify_from st (c :: r) = (k, c) :: classify_from st' r.
Proof. intros E. cbn [classify_from]. rewrite E. reflexivity. Qed.

Lemma classify_from_total : forall t st, st_ok st t ->
  classify_panics_from st t = false /\ map snd (classify_from st t) = t.
Proof.
  induction t as [|c r IH]; intros st Hok; [split; reflexivity|].
  cbn [classify_from classify_panics_from]. destruct (step_ok st c r Hok) as (k & st' & E & Hok').
  rewrite E. destruct (IH st' Hok') as [Hp Hc]. cbn [map snd]. rewrite Hc. split; [exact Hp|reflexivity].
Qed.

Lemma classify_from_length : forall t st, length (classify_from st t) <= length t.
Proof.
  induction t as [|c r IH]; intros st; cbn [classify_from length]; [lia|].
  destruct (step st c r) as [[k st']|]; cbn [length]; [specialize (IH st')|]; lia.
Qed.

Lemma classify_chars t : map snd (classify t) = t.
Proof. apply (classify_from_total t SNormal I). Qed.
Lemma classify_no_panic t : classify_panics t = false.
Proof. apply (classify_from_total t SNormal I). Qed.
Lemma classify_length t : length (classify t) = length t.
Proof. rewrite <- (classify_chars t) at 2. rewrite map_length. reflexivity. Qed.

Lemma classify_from_wf (Fin : wst -> Prop) : forall t st w, abs_ok st w -> st_ok st t ->
  (forall w', abs_ok (final_status_from st t) w' -> Fin w') ->
  kc_wf Fin w (classify_from st t).
Proof.
  induction t as [|c r IH]; intros st w Ha Hok HF; [exact (HF w Ha)|].
  cbn [classify_from]. cbn [final_status_from] in HF.
  pose proof (step_sim Fin st c r w Hok Ha) as S.
  destruct (step st c r) as [[k st']|]; [|destruct S]. destruct S as [Hok' S].
  apply S. intros w' Ha'. exact (IH st' w' Ha' Hok' HF).
Qed.

Lemma classify_wf t : kc_wf fin_any WCode (classify t).
Proof. apply classify_from_wf; [reflexivity|exact I|]. intros w' _. exact I. Qed.

Lemma classify_wf_closed t : in_block_comment (final_status t) = false -> kc_wf fin_closed WCode (classify t).
Proof.
  intros H. apply classify_from_wf; [reflexivity|exact I|]. fold (final_status t).
  intros w' Ha. destruct (final_status t); try discriminate H; cbn [abs_ok] in Ha; subst w'; exact I.
Qed.

Lemma classify_start_comment t l1 c l2 : classify t = l1 ++ (KStartComment, c) :: l2 ->
  c = SLASH /\ exists d l2', l2 = (KInComment, d) :: l2' /\ (d = SLASH \/ d = STAR).
Proof.
  intros E. pose proof (classify_wf t) as H. rewrite E in H.
  apply kc_wf_suffix in H. destruct H as [w H].
  destruct (comment_start _ _ _ _ H) as (Hc & d & l2' & _ & E2 & Hd & _). eauto.
Qed.

Lemma classify_kinds t k c : In (k, c) (classify t) ->
  k = KNormal \/ k = KStartComment \/ k = KInComment \/ k = KEndComment \/
  k = KInStringCommented \/ k = KInString.
Proof.
  intros Hin. apply in_split in Hin. destruct Hin as (l1 & l2 & E).
  pose proof (classify_wf t) as H. rewrite E in H.
  apply kc_wf_suffix in H. destruct H as [w H]. cbn [kc_wf] in H.
  destruct w, k; try contradiction; tauto.
Qed.

Lemma step_ext st c r r' :
  firstn 2 r = firstn 2 r' ->
  (forall n, is_raw_string_suffix r n = is_raw_string_suffix r' n) ->
  step st c r = step st c r'.
Proof.
  intros H2 Hraw.
  assert (Hpeek : forall x, peek_is r x = peek_is r' x).
  { intros x. destruct r as [|a r1], r' as [|a' r1']; cbn [firstn] in H2; try discriminate H2; [reflexivity|].
    injection H2 as -> _. reflexivity. }
  destruct st; unfold step; rewrite ?Hraw, ?Hpeek; try reflexivity.
  (* there remains SNormal, which at a single quote looks two chars ahead *)
  destruct r as [|a [|b r2]], r' as [|a' [|b' r2']]; cbn [firstn] in H2; try discriminate H2; try reflexivity.
  - injection H2 as ->. reflexivity.
  - injection H2 as -> ->. reflexivity.
Qed.

Lemma raw_suffix_stop : forall a x z z' n, x <> HASH ->
  is_raw_string_suffix (a ++ x :: z) n = is_raw_string_suffix (a ++ x :: z') n.
Proof.
  induction a as [|h a IH]; intros x z z' n Hx; destruct n as [|n]; cbn [app is_raw_string_suffix]; try reflexivity.
  - destruct (N.eqb_spec x HASH); [contradiction|reflexivity].
  - destruct (h =? HASH)%N; [apply IH; exact Hx|reflexivity].
Qed.

Lemma classify_before_opener x z z' : forall a st A R, st_ok st (a ++ SLASH :: x :: z) ->
  classify_from st (a ++ SLASH :: x :: z) = A ++ R -> length A = length a ->
  exists st', classify_from st' (SLASH :: x :: z) = R /\
    classify_from st (a ++ SLASH :: x :: z') = A ++ classify_from st' (SLASH :: x :: z') /\
    st_ok st' (SLASH :: x :: z).
Proof.
  induction a as [|c a IH]; intros st A R Hok E Hl; destruct A as [|[k0 c0] A]; try discriminate Hl; cbn [app] in *.
  - exists st. auto.
  - destruct (step_ok st c _ Hok) as (k & st' & Es & Hok').
    assert (Es' : step st c (a ++ SLASH :: x :: z') = Some (k, st')).
    { rewrite <- Es. apply step_ext.
      - (* the next two chars are in [a], or are SLASH and [x] *)
        destruct a as [|a1 [|a2 a]]; reflexivity.
      - intros n. apply raw_suffix_stop. discriminate. }
    rewrite (classify_from_cons _ _ _ _ _ Es) in E. injection E as <- <- E. injection Hl as Hl.
    destruct (IH st' A R Hok' E Hl) as (st'' & ER & E' & H1).
    exists st''. rewrite (classify_from_cons _ _ _ _ _ Es'), E'. auto.
Qed.

Lemma step_slash_peek1 st x r r' : step st SLASH (x :: r) = step st SLASH (x :: r').
Proof. destruct st; reflexivity. Qed.

(* [in_block_comment] leaves out SLineComment *)
Definition comment_status (st : status) : bool :=
  match st with
  | SBlockComment _ | SStringInBlockComment _ | SBlockCommentOpening _ | SBlockCommentClosing _
  | SLineComment => true
  | _ => false
  end.

Definition not_star_slash (c : char) : Prop := c <> STAR /\ c <> SLASH.

Lemma step_comment_ext st c r r' : comment_status st = true ->
  (peek_is r SLASH = peek_is r' SLASH /\ peek_is r STAR = peek_is r' STAR) \/ not_star_slash c ->
  step st c r = step st c r'.
Proof.
  intros Hc [[H1 H2]|[Hs Hl]]; destruct st as [| | | | | | | |d|d|d|d|]; try discriminate Hc; unfold step;
    rewrite ?H1, ?H2; try reflexivity.
  (* there remain, when [c] is neither a star nor a slash: *)
  - (* SBlockComment *)
    destruct d; [reflexivity|].
    destruct (N.eqb_spec c STAR); [contradiction|]. destruct (N.eqb_spec c SLASH); [contradiction|].
    rewrite !andb_false_r. reflexivity.
  - (* SStringInBlockComment *)
    destruct (N.eqb_spec c STAR); [contradiction|]. reflexivity.
Qed.

(* from a code status the grammar starts in WCode ([classify_from_wf]), where it has no such item *)
Lemma inside_comment_status st t k c l : st_ok st t -> classify_from st t = (k, c) :: l ->
  inside_comment k = true -> comment_status st = true.
Proof.
  intros Hok E Hk. destruct (comment_status st) eqn:Ec; [reflexivity|].
  assert (Ha : abs_ok st WCode) by (destruct st; try discriminate Ec; reflexivity).
  pose proof (classify_from_wf fin_any t st WCode Ha Hok (fun _ _ => I)) as H. rewrite E in H.
  destruct k; try discriminate Hk; exact (False_ind _ H).
Qed.

Lemma step_comment_status st c r k st' : comment_status st = true -> step st c r = Some (k, st') ->
  inside_comment k = true -> comment_status st' = true.
Proof.
  intros Hc E Hk. destruct st as [| | |n|n|n| | |d|d|d|d|]; try discriminate Hc; unfold step in E.
  - (* SBlockComment *)
    destruct d as [|d']; [discriminate E|].
    destruct (peek_is r SLASH && (c =? STAR)%N); [injection E as _ <-; reflexivity|].
    destruct (peek_is r STAR && (c =? SLASH)%N); [injection E as _ <-; reflexivity|].
    destruct (c =? DQ)%N; injection E as _ <-; reflexivity.
  - (* SStringInBlockComment *)
    destruct (c =? DQ)%N; [injection E as _ <-; reflexivity|].
    destruct ((c =? STAR)%N && peek_is r SLASH); [destruct d; [discriminate E|]|]; injection E as _ <-; reflexivity.
  - (* SBlockCommentOpening *) destruct (c =? STAR)%N; [injection E as _ <-; reflexivity|discriminate E].
  - (* SBlockCommentClosing *)
    destruct (c =? SLASH)%N; [|discriminate E]. destruct d; injection E as <- <-; [discriminate Hk|reflexivity].
  - (* SLineComment *) destruct (c =? LF)%N; injection E as <- <-; [discriminate Hk|reflexivity].
Qed.

(* the last char of [P] does not see that [w] is put before [q] ([step_comment_ext]) *)
Definition boundary_ok (P w q : text) : Prop :=
  (peek_is q SLASH = peek_is (w ++ q) SLASH /\ peek_is q STAR = peek_is (w ++ q) STAR) \/
  not_star_slash (last P 0%N).

Lemma classify_comment_local w q : forall P st B C, comment_status st = true ->
  st_ok st (P ++ q) -> st_ok st (P ++ w ++ q) ->
  classify_from st (P ++ q) = B ++ C -> length B = length P -> Forall inside_item B -> boundary_ok P w q ->
  exists st1, comment_status st1 = true /\ st_ok st1 q /\ st_ok st1 (w ++ q) /\ map snd B = P /\
    C = classify_from st1 q /\ classify_from st (P ++ w ++ q) = B ++ classify_from st1 (w ++ q).
Proof.
  induction P as [|c P IH]; intros st B C Hc Hok Hok' E Hl HB Hb.
  - destruct B; [|discriminate Hl]. exists st. cbn [app] in *. auto 10.
  - destruct B as [|[k c0] B]; [discriminate Hl|]. cbn [app classify_from] in E.
    destruct (step st c (P ++ q)) as [[k' st']|] eqn:Es; [|discriminate E]. injection E as -> <- E.
    inversion HB as [|? ? Hk HB']; subst.
    assert (Es' : step st c (P ++ w ++ q) = Some (k, st')).
    { rewrite <- Es. symmetry. apply step_comment_ext; [exact Hc|].
      (* only the last char of [P] looks beyond [P] *)
      destruct P as [|d P1]; [exact Hb|left; split; reflexivity]. }
    destruct (IH st' B C (step_comment_status _ _ _ _ _ Hc Es Hk) (step_keeps_ok _ _ _ _ _ Hok Es)
                (step_keeps_ok _ _ _ _ _ Hok' Es') E) as (st1 & H1 & H2 & H3 & H4 & H5 & H6).
    { cbn [length] in Hl. lia. }
    { exact HB'. }
    { destruct P; [right; split; discriminate|exact Hb]. }
    exists st1. cbn [map snd app]. rewrite (classify_from_cons _ _ _ _ _ Es'), H6, H4. auto 10.
Qed.

Lemma ws_not_special c : ws c ->
  (c =? STAR)%N = false /\ (c =? SLASH)%N = false /\ (c =? DQ)%N = false /\ (c =? BANG)%N = false.
Proof.
  intros H. repeat split; apply N.eqb_neq; intros ->; vm_compute in H; discriminate H.
Qed.

Lemma boundary_trailing P w q : Forall blank w -> boundary_ok P w (LF :: q).
Proof.
  intros Hw. left. destruct Hw as [|d w' [Hd _] _]; [split; reflexivity|].
  destruct (ws_not_special d Hd) as (Es & El & _). cbn [app peek_is]. rewrite Es, El. split; reflexivity.
Qed.

Definition kind_in (st : status) : kind :=
  match st with SStringInBlockComment _ => KInStringCommented | _ => KInComment end.

Lemma kind_in_inside st : inside_comment (kind_in st) = true.
Proof. destruct st; reflexivity. Qed.

Lemma classify_blanks q : forall w st, comment_status st = true -> st_ok st (w ++ q) -> Forall blank w ->
  classify_from st (w ++ q) = map (fun c => (kind_in st, c)) w ++ classify_from st q.
Proof.
  induction w as [|c w IH]; intros st Hc Hok Hb; [reflexivity|].
  inversion Hb as [|? ? [Hws Hlf] Hb']; subst.
  destruct (ws_not_special c Hws) as (Es & El & Eq & _).
  assert (E : step st c (w ++ q) = Some (kind_in st, st)).
  { destruct st as [| | | | | | | |d|d|d|d|]; try discriminate Hc; cbn [st_ok app] in Hok; unfold step, kind_in.
    - (* SBlockComment *) destruct d as [|d]; [congruence|]. rewrite Es, El, Eq, !andb_false_r. reflexivity.
    - (* SStringInBlockComment *) rewrite Eq, Es. reflexivity.
    - (* SBlockCommentOpening: the next char is a star *)
      destruct Hok as [_ [r' Hr]]. injection Hr as -> _. discriminate Es.
    - (* SBlockCommentClosing: the next char is a slash *)
      destruct Hok as [r' Hr]. injection Hr as -> _. discriminate El.
    - (* SLineComment *) destruct (N.eqb_spec c LF); [contradiction|]. reflexivity. }
  cbn [app map]. rewrite (classify_from_cons _ _ _ _ _ E), (IH st Hc (step_keeps_ok _ _ _ _ _ Hok E) Hb').
  reflexivity.
Qed.

Lemma blen_app a b : blen (a ++ b) = blen a + blen b.
Proof. induction a as [|x a IH]; cbn [blen app]; [reflexivity|]. rewrite IH. lia. Qed.
Lemma utf8_len_pos c : 1 <= utf8_len c.
Proof. unfold utf8_len. destruct (c <? 128)%N; [lia|]. destruct (c <? 2048)%N; [lia|]. destruct (c <? 65536)%N; lia. Qed.
Lemma items_text_app a b : items_text (a ++ b) = items_text a ++ items_text b.
Proof. unfold items_text. rewrite map_app, concat_app. reflexivity. Qed.

Fixpoint offs_ok (base : nat) (items : list (option slice_item)) : Prop :=
  match items with
  | [] => True
  | None :: _ => True
  | Some (_, o, s) :: rest => o = base /\ offs_ok (base + blen s) rest
  end.

Lemma offs_ok_split : forall l1 base k o s l2,
  offs_ok base (l1 ++ Some (k, o, s) :: l2) -> ~ In None l1 -> o = base + blen (items_text l1).
Proof.
  induction l1 as [|[[[k1 o1] s1]|] l1 IH]; intros base k o s l2 H Hn.
  - cbn [app offs_ok] in H. destruct H as [-> _]. unfold items_text. cbn [map concat blen]. lia.
  - cbn [app offs_ok] in H. destruct H as [-> H].
    rewrite (IH _ _ _ _ _ H); [|intros Hin; apply Hn; right; exact Hin].
    unfold items_text. cbn [map concat item_text]. rewrite blen_app. lia.
  - exfalso. apply Hn. left. reflexivity.
Qed.

Lemma offs_ok_at items l1 k o s l2 : offs_ok 0 items -> ~ In None items ->
  items = l1 ++ Some (k, o, s) :: l2 -> o = blen (items_text l1).
Proof.
  intros O Hn ->. apply offs_ok_split in O; [exact O|]. intros Hin. apply Hn, in_or_app. left. exact Hin.
Qed.

Definition sliced (G : option slice_item -> Prop) (base : nat) (txt : text) (items : list (option slice_item)) : Prop :=
  Forall G items /\ items_text items = txt /\ offs_ok base items.

Lemma sliced_nil (G : option slice_item -> Prop) base : sliced G base [] [].
Proof. split; [constructor|]. split; [reflexivity|exact I]. Qed.

Lemma sliced_cons (G : option slice_item -> Prop) k o s txt items : G (Some (k, o, s)) -> sliced G (o + blen s) txt items ->
  sliced G o (s ++ txt) (Some (k, o, s) :: items).
Proof.
  intros Hg (F & T & O). split; [constructor; assumption|]. split; [|split; [reflexivity|exact O]].
  unfold items_text in *. cbn [map concat item_text]. rewrite T. reflexivity.
Qed.

Definition item_good (Fin : wst -> Prop) (it : option slice_item) : Prop :=
  match it with
  | None => False
  | Some (CNormal, _, s) => s <> []
  | Some (CComment, _, s) => line_comment s \/ closed_block s \/ (open_block s /\ exists p, Fin (WBlock p))
  end.

(* the chars of the rest of a comment, terminator included, and the items after it *)
Fixpoint crest (R : list (kind * char)) : text :=
  match R with
  | [] => []
  | (k, c) :: R' => c :: (if inside_comment k then crest R' else [])
  end.
Fixpoint ctail (R : list (kind * char)) : list (kind * char) :=
  match R with
  | [] => []
  | (k, c) :: R' => if inside_comment k then ctail R' else R'
  end.

Lemma crest_ctail : forall R, map snd R = crest R ++ map snd (ctail R).
Proof.
  induction R as [|[k c] R IH]; cbn [map snd crest ctail app]; [reflexivity|].
  destruct (inside_comment k); [rewrite IH|]; reflexivity.
Qed.

Lemma ctail_length : forall R, length (ctail R) <= length R.
Proof.
  induction R as [|[k c] R IH]; cbn [ctail length]; [lia|]. destruct (inside_comment k); lia.
Qed.

Lemma crest_inside P L : Forall inside_item P -> crest (P ++ L) = map snd P ++ crest L.
Proof.
  induction 1 as [|[k c] P Hk _ IH]; [reflexivity|]. unfold inside_item in Hk. cbn [fst] in Hk.
  cbn [app crest map snd]. rewrite Hk, IH. reflexivity.
Qed.
Lemma ctail_inside P L : Forall inside_item P -> ctail (P ++ L) = ctail L.
Proof.
  induction 1 as [|[k c] P Hk _ IH]; [reflexivity|]. unfold inside_item in Hk. cbn [fst] in Hk.
  cbn [app ctail]. rewrite Hk. exact IH.
Qed.

(* the loop of the StartComment arm runs to the end of the comment *)
Lemma ung_go_comment : forall R s acc off,
  ung_go UComment s acc off R =
  Some (CComment, s, rev acc ++ crest R) ::
  ung_go UIdle (off + blen (crest R)) [] (off + blen (crest R)) (ctail R).
Proof.
  induction R as [|[k c] R IH]; intros s acc off; cbn [ung_go crest ctail blen].
  - rewrite app_nil_r. reflexivity.
  - destruct (inside_comment k).
    + rewrite IH. cbn [rev]. rewrite <- app_assoc, Nat.add_assoc. reflexivity.
    + cbn [blen]. rewrite Nat.add_0_r. reflexivity.
Qed.

Lemma ung_go_congr S1 S2 :
  (forall m s s' acc off off',
     map item_stream (ung_go m s acc off S1) = map item_stream (ung_go m s' acc off' S2)) ->
  forall A m s s' acc off off',
  map item_stream (ung_go m s acc off (A ++ S1)) = map item_stream (ung_go m s' acc off' (A ++ S2)).
Proof.
  intros HS. induction A as [|[k c] A IH]; intros m s s' acc off off'; [apply HS|].
  (* the match on the first item of a slice is what UIdle does *)
  assert (F : map item_stream (ung_go UIdle off [] off ((k, c) :: A ++ S1)) =
              map item_stream (ung_go UIdle off' [] off' ((k, c) :: A ++ S2))).
  { cbn [ung_go]. destruct k; try reflexivity; apply IH. }
  cbn [app ung_go]. destruct m.
  - exact F.
  - destruct (is_comment k); [cbn [map item_stream]; f_equal; exact F|apply IH].
  - destruct (inside_comment k); [apply IH|]. cbn [map item_stream]. f_equal. apply IH.
Qed.

Lemma ung_go_offsets L m s s' acc off off' :
  map item_stream (ung_go m s acc off L) = map item_stream (ung_go m s' acc off' L).
Proof.
  rewrite <- (app_nil_r L). apply ung_go_congr. intros m0 s0 s0' acc0 o o'. destruct m0; reflexivity.
Qed.

Lemma ung_go_idle_inside k c L s acc off : inside_comment k = true ->
  ung_go UIdle s acc off ((k, c) :: L) = [None].
Proof. destruct k; try discriminate; reflexivity. Qed.

Lemma comment_run Fin : forall l w pre o, kc_wf Fin w l -> comment_so_far w pre ->
  item_good Fin (Some (CComment, o, pre ++ crest l)) /\
  (ctail l = [] \/ kc_wf Fin WCode (ctail l)).
Proof.
  induction l as [|[k c] l IH]; intros w pre o Hwf Hpre; cbn [crest ctail].
  - rewrite app_nil_r. split; [|left; reflexivity]. cbn [item_good].
    destruct w as [| | |p]; try contradiction.
    + left. exact Hpre.
    + destruct Hpre as (m & Hm & _). right. right. split; [exists m; exact Hm|exists p; exact Hwf].
  - assert (Hin : forall w', kc_wf Fin w' l -> comment_so_far w' (pre ++ [c]) ->
              item_good Fin (Some (CComment, o, pre ++ c :: crest l)) /\
              (ctail l = [] \/ kc_wf Fin WCode (ctail l))).
    { intros w' Hwf' Hpre'. destruct (IH w' (pre ++ [c]) o Hwf' Hpre') as [G T].
      rewrite <- app_assoc in G. exact (conj G T). }
    cbn [kc_wf] in Hwf. destruct w as [| | |p]; try contradiction.
    + destruct Hpre as [b ->]. destruct k; try contradiction; cbn [inside_comment]; destruct Hwf as [Hc Hwf].
      * (* KInComment *) apply (Hin WLine Hwf). exists (b ++ [c]). reflexivity.
      * (* KEndComment *) split; [|right; exact Hwf]. left. exists (b ++ [c]). reflexivity.
    + destruct Hpre as (m & -> & Hp).
      assert (Hnext : comment_so_far (WBlock (c =? STAR)%N) ((SLASH :: STAR :: m) ++ [c])).
      { exists (m ++ [c]). split; [reflexivity|]. intros Hc. apply N.eqb_eq in Hc. subst c. exists m. reflexivity. }
      destruct k; try contradiction; cbn [inside_comment].
      * (* KInComment *) exact (Hin _ Hwf Hnext).
      * (* KEndComment *) destruct Hwf as (-> & -> & Hwf). destruct (Hp eq_refl) as [m' ->]. split; [|right; exact Hwf].
        right. left. exists m'. cbn [app]. rewrite <- app_assoc. reflexivity.
      * (* KInStringCommented *) exact (Hin _ Hwf Hnext).
Qed.

Definition pending (m : umode) (acc : text) : text :=
  match m with UIdle => [] | _ => rev acc end.
Definition ubase (m : umode) (start off : nat) : nat :=
  match m with UIdle => off | _ => start end.

(* a comment is jumped over by [ung_go_comment], hence the induction on a bound of the length *)
Lemma ung_go_spec Fin : forall n l m start acc off, length l < n -> l = [] \/ kc_wf Fin WCode l ->
  match m with
  | UIdle => True
  | UNormal => rev acc <> [] /\ off = start + blen (rev acc)
  | UComment => False
  end ->
  sliced (item_good Fin) (ubase m start off) (pending m acc ++ map snd l)
    (ung_go m start acc off l).
Proof.
  set (G := item_good Fin).
  induction n as [|n IH]; intros l m start acc off Hn Hwf Hm; [lia|].
  destruct l as [|[k c] l'].
  - destruct m; [apply sliced_nil| |contradiction]. destruct Hm as [Ha _].
    apply sliced_cons; [exact Ha|apply sliced_nil].
  - destruct Hwf as [Hnil|Hwf]; [discriminate Hnil|]. cbn [length] in Hn. cbn [map snd].
    assert (Hcode : forall s a, off = s + blen (rev a) -> kc_wf Fin WCode l' ->
              sliced G s (rev a ++ c :: map snd l') (ung_go UNormal s (c :: a) (off + utf8_len c) l')).
    { intros s a Hoff Hwf'. pose proof (IH l' UNormal s (c :: a) (off + utf8_len c)) as H.
      cbn [pending ubase rev] in H. rewrite <- app_assoc in H.
      apply H; [lia|right; exact Hwf'|]. split; [intros E; exact (app_cons_not_nil _ _ _ (eq_sym E))|].
      rewrite blen_app. cbn [blen]. lia. }
    assert (Hstart : k = KStartComment ->
              sliced G off (c :: map snd l') (ung_go UComment off [c] (off + utf8_len c) l')).
    { intros ->. rewrite ung_go_comment, <- Nat.add_assoc, (crest_ctail l').
      destruct (comment_start Fin _ c l' Hwf) as (-> & d & l'' & w & -> & _ & Hw & Hpre).
      destruct (comment_run Fin l'' w [SLASH; d] off Hw Hpre) as [Hg Ht].
      apply (sliced_cons G CComment off (SLASH :: d :: crest l'')); [exact Hg|].
      apply (IH (ctail l'') UIdle); [pose proof (ctail_length l''); cbn [length] in Hn; lia|exact Ht|exact I]. }
    cbn [kc_wf] in Hwf. cbn [ung_go]. destruct k; try contradiction; destruct m; try contradiction; cbn [is_comment pending ubase app].
    + (* KNormal, UIdle *) apply (Hcode off []); [cbn [rev blen]; lia|exact Hwf].
    + (* KNormal, UNormal *) destruct Hm as [_ Hoff]. exact (Hcode start acc Hoff Hwf).
    + (* KStartComment, UIdle *) exact (Hstart eq_refl).
    + (* KStartComment, UNormal: the code slice ends *)
      destruct Hm as [Ha Hoff]. apply sliced_cons; [exact Ha|]. rewrite <- Hoff. exact (Hstart eq_refl).
    + (* KInString, UIdle *) apply (Hcode off []); [cbn [rev blen]; lia|exact Hwf].
    + (* KInString, UNormal *) destruct Hm as [_ Hoff]. exact (Hcode start acc Hoff Hwf).
Qed.

Lemma ungrouped_sliced Fin t : kc_wf Fin WCode (classify t) ->
  sliced (item_good Fin) 0 t (ungrouped t).
Proof.
  intros Hwf.
  pose proof (ung_go_spec Fin _ (classify t) UIdle 0 [] 0 (Nat.lt_succ_diag_r _) (or_intror Hwf) I) as H.
  cbn [pending ubase app] in H. rewrite classify_chars in H. exact H.
Qed.

Lemma ungrouped_good Fin t it : kc_wf Fin WCode (classify t) -> In it (ungrouped t) ->
  item_good Fin it.
Proof. intros Hwf. apply Forall_forall. apply (ungrouped_sliced Fin t Hwf). Qed.

Lemma ungrouped_no_panic t : ~ In None (ungrouped t).
Proof. exact (ungrouped_good fin_any t None (classify_wf t)). Qed.

Lemma ungrouped_partition t : items_text (ungrouped t) = t.
Proof. apply (ungrouped_sliced fin_any t (classify_wf t)). Qed.

Lemma ungrouped_offsets t l1 k o s l2 :
  ungrouped t = l1 ++ Some (k, o, s) :: l2 -> o = blen (items_text l1).
Proof.
  apply offs_ok_at; [apply (ungrouped_sliced fin_any t (classify_wf t))|apply ungrouped_no_panic].
Qed.

Lemma ungrouped_normal_nonempty t o s : In (Some (CNormal, o, s)) (ungrouped t) -> s <> [].
Proof. exact (ungrouped_good fin_any t _ (classify_wf t)). Qed.

Lemma ungrouped_closed_shape t o s : in_block_comment (final_status t) = false ->
  In (Some (CComment, o, s)) (ungrouped t) -> line_comment s \/ closed_block s.
Proof.
  intros Hc Hin. destruct (ungrouped_good fin_closed t _ (classify_wf_closed t Hc) Hin) as [H|[H|[_ [p []]]]]; auto.
Qed.

Lemma ungrouped_comment_starts2 t o s : In (Some (CComment, o, s)) (ungrouped t) -> starts2 s.
Proof.
  intros Hin. apply starts2_iff.
  destruct (ungrouped_good fin_any t _ (classify_wf t) Hin) as [H|[H|[H _]]]; auto using closed_open.
Qed.

Lemma gloop_comment Fin : forall l i, kc_wf Fin WCode l ->
  gloop CComment false i None l = (None, None, true) \/
  exists n, n <= length l /\ starts2 (map snd (skipn n l)) /\
    gloop CComment false i None l = (Some (i + n), None, false).
Proof.
  induction l as [|[k c] l IH]; intros i Hwf; [left; reflexivity|].
  assert (Hcode : kc_wf Fin WCode l ->
            gloop CComment false (S i) None l = (None, None, true) \/
            exists n, n <= length ((k, c) :: l) /\ starts2 (map snd (skipn n ((k, c) :: l))) /\
              gloop CComment false (S i) None l = (Some (i + n), None, false)).
  { intros Hwf'. destruct (IH (S i) Hwf') as [E|(n & Hn & Hs & E)]; [left; exact E|right].
    exists (S n). cbn [length skipn]. rewrite Nat.add_succ_r. split; [lia|]. auto. }
  cbn [gloop andb]. unfold to_codecharkind. cbn [kc_wf] in Hwf.
  destruct k; try contradiction; cbn [is_comment ckind_eqb andb negb].
  - (* KNormal *) exact (Hcode Hwf).
  - (* KStartComment *) right. destruct (comment_start Fin WCode c l Hwf) as (-> & d & l2 & _ & -> & Hd & _).
    exists 0. cbn [skipn map snd]. rewrite Nat.add_0_r. split; [lia|].
    split; [exists d, (map snd l2); auto|reflexivity].
  - (* KInString *) exact (Hcode Hwf).
Qed.

Lemma grouped_next_comment sub :
  exists n, grouped_next CComment sub = Some n /\ n <= length sub /\
            (skipn n sub = [] \/ starts2 (skipn n sub)).
Proof.
  unfold grouped_next.
  destruct (gloop_comment fin_any (classify sub) 0 (classify_wf sub)) as [E|(n & Hn & Hs & E)];
    rewrite E; cbn [andb plus].
  - exists (length sub). split; [reflexivity|]. split; [lia|]. left. apply skipn_all.
  - exists n. rewrite classify_length in Hn. rewrite <- skipn_map, classify_chars in Hs. auto.
Qed.

Lemma gloop_bounds last conn lo hi : forall l i fw brk fw' ex,
  lo <= i -> i + length l = hi -> match fw with Some j => lo <= j <= i | None => True end ->
  gloop last conn i fw l = (brk, fw', ex) ->
  match brk with Some j => lo <= j < hi | None => ex = true end /\
  match fw' with Some j => lo <= j <= hi | None => True end.
Proof.
  induction l as [|[k c] l IH]; intros i fw brk fw' ex Hlo Hhi Hfw E; cbn [gloop length] in *.
  - injection E as <- <- <-. split; [reflexivity|]. destruct fw; [lia|exact I].
  - set (is_conn := conn && ((c =? SP)%N || (c =? TAB)%N)) in *.
    set (fw1 := if is_conn then match fw with None => Some i | Some _ => fw end else fw) in *.
    assert (Hfw1 : match fw1 with Some j => lo <= j <= i | None => True end).
    { unfold fw1. destruct is_conn; [|exact Hfw]. destruct fw; [exact Hfw|lia]. }
    destruct (ckind_eqb (to_codecharkind k) last && negb is_conn).
    + injection E as <- <- <-. destruct fw1; [lia|]. split; [lia|exact I].
    + apply (IH (S i)) in E; [exact E|lia|lia|].
      destruct is_conn; [|exact I]. destruct fw1; [lia|exact I].
Qed.

Lemma grouped_next_normal sub : starts2 sub ->
  exists n, grouped_next CNormal sub = Some n /\ 2 <= n <= length sub.
Proof.
  intros (d & r & -> & Hd). unfold grouped_next.
  assert (E2 : first2_is_slashes (SLASH :: d :: r) = Some (d =? SLASH)%N).
  { destruct Hd as [->| ->]; reflexivity. }
  rewrite E2.
  (* the two items of the opener do not break the loop *)
  assert (Eg : exists st, gloop CNormal (d =? SLASH)%N 0 None (classify (SLASH :: d :: r)) =
               gloop CNormal (d =? SLASH)%N 2 None (classify_from st r)).
  { destruct Hd as [->| ->]; eexists; reflexivity. }
  destruct Eg as [st Eg]. rewrite Eg.
  destruct (gloop CNormal (d =? SLASH)%N 2 None (classify_from st r)) as [[brk fw'] ex] eqn:E.
  apply gloop_bounds with (lo := 2) (hi := 2 + length (classify_from st r)) in E;
    [|lia|reflexivity|exact I].
  destruct E as [E1 E3].
  pose proof (classify_from_length r st) as Hlen.
  cbn [length].
  destruct brk as [j|].
  - destruct (Nat.eqb_spec j 0) as [Hj|Hj]; [lia|]. rewrite andb_false_r.
    exists j. split; [reflexivity|]. lia.
  - rewrite E1.
    destruct fw' as [j|].
    + exists j. split; [reflexivity|]. lia.
    + exists (S (S (length r))). split; [reflexivity|]. lia.
Qed.

Definition comment_starts2 (it : option slice_item) : Prop :=
  match it with Some (CComment, _, s) => starts2 s | _ => True end.

Lemma grouped_fuel_spec : forall fuel last off sub,
  (last = CNormal -> sub = [] \/ starts2 sub) ->
  2 * length sub + (match last with CComment => 1 | CNormal => 0 end) <= fuel ->
  let items := grouped_fuel fuel last off sub in
  sliced comment_starts2 off sub items /\ alternate (flip_ckind last) items.
Proof.
  induction fuel as [|f IH]; intros last off sub Hinv Hfuel.
  - destruct sub as [|c sub]; [|cbn [length] in Hfuel; lia]. split; [apply sliced_nil|exact I].
  - cbn [grouped_fuel]. destruct sub as [|c0 sub0] eqn:Es; [split; [apply sliced_nil|exact I]|]. rewrite <- Es in *.
    assert (Hnext : exists n, grouped_next last sub = Some n /\ n <= length sub /\
              comment_starts2 (Some (flip_ckind last, off, firstn n sub)) /\
              match last with
              | CNormal => 2 <= n
              | CComment => skipn n sub = [] \/ starts2 (skipn n sub)
              end).
    { destruct last.
      - destruct (Hinv eq_refl) as [H0|H2]; [congruence|].
        destruct (grouped_next_normal sub H2) as (n & En & Hn). exists n.
        split; [exact En|]. split; [lia|]. split; [|lia].
        destruct H2 as (d & r & -> & Hd). destruct n as [|[|n]]; [lia|lia|]. exists d, (firstn n r). auto.
      - destruct (grouped_next_comment sub) as (n & En & Hn & Hs). exists n.
        split; [exact En|]. split; [exact Hn|]. split; [exact I|exact Hs]. }
    destruct Hnext as (n & En & Hn & Hg & Hrest). rewrite En.
    destruct (IH (flip_ckind last) (off + blen (firstn n sub)) (skipn n sub)) as (S & A).
    { intros E. destruct last; [discriminate E|exact Hrest]. }
    { rewrite skipn_length. destruct last; cbn [flip_ckind]; lia. }
    split; [|split; [reflexivity|exact A]].
    pose proof (sliced_cons _ _ _ _ _ _ Hg S) as H. rewrite firstn_skipn in H. exact H.
Qed.

Lemma slices_spec t : sliced comment_starts2 0 t (slices t) /\ alternate CNormal (slices t).
Proof. apply (grouped_fuel_spec (2 * length t + 2) CComment 0 t); [intros H; discriminate H|lia]. Qed.

Lemma alternate_no_panic : forall items k, alternate k items -> ~ In None items.
Proof.
  induction items as [|[[[k' o] s]|] items IH]; intros k H Hin; cbn [alternate] in H.
  - destruct Hin.
  - destruct H as [_ H]. destruct Hin as [Hin|Hin]; [discriminate Hin|]. exact (IH _ H Hin).
  - exact H.
Qed.

Lemma slices_no_panic t : ~ In None (slices t).
Proof. exact (alternate_no_panic _ _ (proj2 (slices_spec t))). Qed.
Lemma slices_partition t : items_text (slices t) = t.
Proof. apply slices_spec. Qed.
Lemma slices_offsets t l1 k o s l2 :
  slices t = l1 ++ Some (k, o, s) :: l2 -> o = blen (items_text l1).
Proof. apply offs_ok_at; [apply slices_spec|apply slices_no_panic]. Qed.
Lemma slices_alternate t : alternate CNormal (slices t).
Proof. apply slices_spec. Qed.
Lemma slices_comment_starts2 t o s : In (Some (CComment, o, s)) (slices t) -> starts2 s.
Proof. apply (proj1 (Forall_forall _ _) (proj1 (proj1 (slices_spec t)))). Qed.

Lemma stream_ne_false : forall a b, stream_ne a b = Some false -> a = b /\ stream_ok a = true.
Proof.
  induction a as [|[x|] a IH]; intros b H; cbn [stream_ne] in H.
  - destruct b as [|[y|] b]; try discriminate H. split; reflexivity.
  - destruct b as [|[y|] b]; try discriminate H.
    destruct (N.eqb_spec x y) as [->|]; [|discriminate H].
    destruct (IH b H) as [-> Hok]. split; [reflexivity|exact Hok].
  - discriminate H.
Qed.

Lemma stream_ne_ok : forall x y, stream_ne (map Some x) (map Some y) = Some (negb (eqb_text x y)).
Proof.
  induction x as [|c x IH]; intros [|d y]; cbn [map stream_ne eqb_text negb]; try reflexivity.
  destruct (N.eqb_spec c d) as [->|Hne]; cbn [andb negb]; [apply IH|reflexivity].
Qed.

Lemma stream_ok_chars : forall s, stream_ok s = true -> s = map Some (stream_chars s).
Proof.
  induction s as [|[c|] s IH]; cbn [stream_ok forallb stream_chars map]; intros H.
  - reflexivity.
  - cbn [andb] in H. rewrite <- (IH H). reflexivity.
  - discriminate H.
Qed.

Lemma stream_ok_map_some x : stream_ok (map Some x) = true.
Proof. induction x as [|c x IH]; cbn [map stream_ok forallb andb]; [reflexivity|exact IH]. Qed.
Lemma stream_chars_map_some x : stream_chars (map Some x) = x.
Proof. induction x as [|c x IH]; cbn [map stream_chars]; [reflexivity|rewrite IH; reflexivity]. Qed.

Lemma stream_ok_concat ls : stream_ok (concat ls) = forallb stream_ok ls.
Proof.
  induction ls as [|l ls IH]; cbn [concat forallb]; [reflexivity|].
  unfold stream_ok in *. rewrite forallb_app, IH. reflexivity.
Qed.
Lemma stream_chars_app l r : stream_ok l = true -> stream_chars (l ++ r) = stream_chars l ++ stream_chars r.
Proof.
  induction l as [|[c|] l IH]; cbn [app stream_chars stream_ok forallb andb]; intros H; [reflexivity| |discriminate H].
  rewrite (IH H). reflexivity.
Qed.
Lemma stream_chars_concat : forall ls, forallb stream_ok ls = true ->
  stream_chars (concat ls) = concat (map stream_chars ls).
Proof.
  induction ls as [|l ls IH]; cbn [concat forallb map]; intros H; [reflexivity|].
  apply andb_true_iff in H. destruct H as [Hl Hls]. rewrite (stream_chars_app _ _ Hl), (IH Hls). reflexivity.
Qed.

Lemma changed_spec a b : payload_ok a = true -> payload_ok b = true ->
  changed a b = Some (negb (eqb_text (payload a) (payload b))).
Proof.
  unfold payload_ok, payload, changed. intros Ha Hb.
  rewrite (stream_ok_chars _ Ha) at 1. rewrite (stream_ok_chars _ Hb) at 1. apply stream_ne_ok.
Qed.

Lemma changed_false_iff a b :
  changed a b = Some false <-> payload_ok a = true /\ payload_ok b = true /\ payload a = payload b.
Proof.
  split.
  - intros H. unfold changed in H. apply stream_ne_false in H. destruct H as [E Hok].
    unfold payload_ok, payload. rewrite <- E. auto.
  - intros (Ha & Hb & E). rewrite (changed_spec a b Ha Hb), E, eqb_text_refl. reflexivity.
Qed.

Lemma changed_true_iff a b : payload_ok a = true -> payload_ok b = true ->
  (changed a b = Some true <-> payload a <> payload b).
Proof.
  intros Ha Hb. rewrite (changed_spec a b Ha Hb), <- eqb_text_spec.
  destruct (eqb_text (payload a) (payload b)); cbn [negb]; split; congruence.
Qed.

Lemma recover_sound new src r : recover new src = Some r ->
  r = src \/ (r = new /\ payload_ok src = true /\ payload_ok new = true /\ payload new = payload src).
Proof.
  unfold recover. destruct (eqb_text_reflect src new) as [->|_].
  - intros H. injection H as <-. left. reflexivity.
  - destruct (changed src new) as [[|]|] eqn:Ec; intros H; try discriminate H; injection H as <-.
    + left. reflexivity.
    + right. apply changed_false_iff in Ec. destruct Ec as (Ha & Hb & Ep). auto.
Qed.

Lemma recover_spec new src : payload_ok src = true -> payload_ok new = true ->
  recover new src = Some (if eqb_text (payload src) (payload new) then new else src).
Proof.
  intros Ha Hb. unfold recover. destruct (eqb_text_reflect src new) as [->|_].
  - rewrite eqb_text_refl. reflexivity.
  - rewrite (changed_spec src new Ha Hb). destruct (eqb_text (payload src) (payload new)); reflexivity.
Qed.

Lemma remove_header_line b : remove_comment_header (SLASH :: SLASH :: b) = Some (line_body b).
Proof.
  unfold remove_comment_header, starts_with. cbn [length firstn eqb_text].
  destruct b as [|c b']; [reflexivity|]. cbn [firstn eqb_text line_body].
  destruct (c =? SLASH)%N, (c =? BANG)%N; reflexivity.
Qed.

Lemma drop_last2_closer m : drop_last2_bytes (m ++ [STAR; SLASH]) = Some m.
Proof.
  unfold drop_last2_bytes. rewrite rev_app_distr. cbn [rev app].
  exact (f_equal Some (rev_involutive m)).
Qed.

Lemma remove_header_block m :
  remove_comment_header (SLASH :: STAR :: m ++ [STAR; SLASH]) = Some (block_body m).
Proof.
  unfold remove_comment_header, starts_with. cbn [length].
  destruct m as [|c [|d m]]; cbn [app firstn eqb_text block_body].
  - reflexivity.
  - destruct (N.eqb_spec c BANG) as [->|_]; [exact (drop_last2_closer [])|].
    destruct (N.eqb_spec c STAR) as [->|_]; [exact (drop_last2_closer [])|exact (drop_last2_closer [c])].
  - destruct (N.eqb_spec c BANG) as [->|_]; [exact (drop_last2_closer (d :: m))|].
    destruct (N.eqb_spec c STAR) as [->|_]; [|exact (drop_last2_closer (c :: d :: m))].
    destruct (d =? SLASH)%N; [exact (drop_last2_closer (STAR :: d :: m))|exact (drop_last2_closer (d :: m))].
Qed.

Lemma comment_reducer_line b :
  comment_reducer (SLASH :: SLASH :: b) = Some (reduce false RFirst (line_body b)).
Proof. unfold comment_reducer. rewrite remove_header_line. reflexivity. Qed.
Lemma comment_reducer_block m :
  comment_reducer (SLASH :: STAR :: m ++ [STAR; SLASH]) = Some (reduce true RFirst (block_body m)).
Proof. unfold comment_reducer. rewrite remove_header_block. reflexivity. Qed.

(* the header removal does not look at a whitespace char *)
Lemma block_body_ws p : exists pb, forall z Z, ws z -> block_body (p ++ z :: Z) = pb ++ z :: Z.
Proof.
  destruct p as [|c [|d p']].
  - exists []. intros z Z Hz. destruct (ws_not_special z Hz) as (Es & _ & _ & Eb).
    cbn [app block_body]. rewrite Eb, Es. reflexivity.
  - cbn [app block_body]. destruct (c =? BANG)%N; [exists []; reflexivity|].
    destruct (c =? STAR)%N; [|exists [c]; reflexivity].
    exists []. intros z Z Hz. destruct (ws_not_special z Hz) as (_ & El & _). rewrite El. reflexivity.
  - cbn [app block_body].
    destruct (c =? BANG)%N; [exists (d :: p'); reflexivity|].
    destruct (c =? STAR)%N; [|exists (c :: d :: p'); reflexivity].
    destruct (d =? SLASH)%N; [exists (c :: d :: p')|exists (d :: p')]; reflexivity.
Qed.

Lemma line_body_ws p : exists pb, forall z Z, ws z -> line_body (p ++ z :: Z) = pb ++ z :: Z.
Proof.
  destruct p as [|c p'].
  - exists []. intros z Z Hz. destruct (ws_not_special z Hz) as (_ & El & _ & Eb).
    cbn [app line_body]. rewrite El, Eb. reflexivity.
  - cbn [app line_body]. destruct ((c =? SLASH)%N || (c =? BANG)%N); [exists p'|exists (c :: p')]; reflexivity.
Qed.

Lemma reduce_cons b m x t : exists m',
  (reduce b m (x :: t) = reduce b m' t /\ (is_whitespace x = true \/ x = STAR)) \/
  (reduce b m (x :: t) = x :: reduce b m' t /\ is_whitespace x = false).
Proof.
  cbn [reduce]. destruct m; destruct (is_whitespace x) eqn:Ex.
  - eexists. left. split; [reflexivity|auto].
  - eexists. right. split; reflexivity.
  - eexists. left. split; [reflexivity|auto].
  - (* RStart drops a star *) destruct (N.eqb_spec x STAR) as [->|_]; eexists; [left|right]; split; auto.
  - eexists. left. split; [reflexivity|auto].
  - eexists. right. split; reflexivity.
Qed.

Lemma reduce_nonws b : forall t m c, In c (reduce b m t) -> is_whitespace c = false.
Proof.
  induction t as [|x t IH]; intros m c H; [destruct H|].
  destruct (reduce_cons b m x t) as [m' [[E _]|[E Hx]]]; rewrite E in H.
  - exact (IH _ _ H).
  - destruct H as [<-|H]; [exact Hx|exact (IH _ _ H)].
Qed.

Lemma reduce_keeps b : forall t m c, In c t -> is_whitespace c = false -> c <> STAR ->
  In c (reduce b m t).
Proof.
  induction t as [|x t IH]; intros m c Hin Hws Hst; [destruct Hin|].
  destruct (reduce_cons b m x t) as [m' [[E Hx]|[E _]]]; rewrite E.
  - destruct Hin as [->|Hin]; [|exact (IH _ _ Hin Hws Hst)].
    destruct Hx as [Hx| ->]; [rewrite Hws in Hx; discriminate Hx|contradiction].
  - destruct Hin as [->|Hin]; [left; reflexivity|right; exact (IH _ _ Hin Hws Hst)].
Qed.

Lemma reduce_line : forall t, reduce false RFirst t = filter (fun c => negb (is_whitespace c)) t.
Proof.
  induction t as [|x t IH]; cbn [reduce filter andb]; [reflexivity|].
  destruct (is_whitespace x); cbn [negb]; rewrite IH; reflexivity.
Qed.

Lemma comment_reducer_line_filter b :
  comment_reducer (SLASH :: SLASH :: b) =
  Some (filter (fun c => negb (is_whitespace c)) (line_body b)).
Proof. rewrite comment_reducer_line, reduce_line. reflexivity. Qed.

Lemma reduce_start_nil : forall t,
  (reduce true RStart t = [] <-> stars_ok false t) /\ (reduce true RStar t = [] <-> stars_ok true t).
Proof.
  induction t as [|x t [IH0 IH1]]; cbn [reduce stars_ok]; [tauto|].
  destruct (is_whitespace x) eqn:Ex.
  - tauto.
  - destruct (N.eqb_spec x STAR) as [->|Hx].
    + split.
      * rewrite IH1. tauto.
      * split; [discriminate|]. intros (_ & H & _). discriminate H.
    + split; (split; [discriminate|]); intros (H & _); contradiction.
Qed.

Lemma reduce_block_nil : forall t, reduce true RFirst t = [] <-> trivial_block t.
Proof.
  induction t as [|x t IH]; cbn [reduce trivial_block andb]; [tauto|].
  destruct (is_whitespace x) eqn:Ex.
  - destruct (x =? LF)%N.
    + rewrite (proj1 (reduce_start_nil t)). tauto.
    + rewrite IH. tauto.
  - split; [discriminate|]. intros [H _]. discriminate H.
Qed.

Lemma reduce_line_nil : forall t, reduce false RFirst t = [] <-> Forall ws t.
Proof.
  induction t as [|x t IH]; cbn [reduce andb].
  - split; [constructor|reflexivity].
  - destruct (is_whitespace x) eqn:Ex.
    + rewrite IH. split; [intros H; constructor; assumption|intros H; inversion H; assumption].
    + split; [discriminate|]. intros H. inversion H as [|? ? Hx _]. unfold ws in Hx. rewrite Ex in Hx. discriminate Hx.
Qed.

Lemma comment_reducer_line_nil b :
  comment_reducer (SLASH :: SLASH :: b) = Some [] <-> Forall ws (line_body b).
Proof.
  rewrite comment_reducer_line, <- reduce_line_nil. split; [intros H; injection H; auto|intros ->; reflexivity].
Qed.
Lemma comment_reducer_block_nil m :
  comment_reducer (SLASH :: STAR :: m ++ [STAR; SLASH]) = Some [] <-> trivial_block (block_body m).
Proof.
  rewrite comment_reducer_block, <- reduce_block_nil. split; [intros H; injection H; auto|intros ->; reflexivity].
Qed.

Lemma reduce_congr b y y' : (forall m, reduce b m y = reduce b m y') ->
  forall a m, reduce b m (a ++ y) = reduce b m (a ++ y').
Proof.
  intros H. induction a as [|c a IH]; intros m; [apply H|].
  cbn [app reduce]. rewrite !IH. reflexivity.
Qed.

Definition after_lf (b : bool) (m : rmode) : rmode :=
  match m with RFirst => if b then RStart else RFirst | _ => RStart end.

Lemma reduce_lf b m r : reduce b m (LF :: r) = reduce b (after_lf b m) r.
Proof. destruct m, b; reflexivity. Qed.

Lemma reduce_ws_lf b : forall w m r, Forall ws w ->
  reduce b m (w ++ LF :: r) = reduce b (after_lf b m) r.
Proof.
  induction w as [|c w IH]; intros m r Hw; [apply reduce_lf|].
  inversion Hw as [|? ? Hc Hw']; subst. unfold ws in Hc. cbn [app reduce]. rewrite Hc.
  destruct m; rewrite (IH _ _ Hw').
  - destruct b; [|reflexivity]. cbn [andb]. destruct (c =? LF)%N; reflexivity.
  - reflexivity.
  - reflexivity.
Qed.

Lemma reduce_trailing_blanks b m w r : Forall ws w ->
  reduce b m (w ++ LF :: r) = reduce b m (LF :: r).
Proof. intros Hw. rewrite (reduce_ws_lf b w m r Hw), reduce_lf. reflexivity. Qed.

Lemma reduce_start_ws : forall w r, Forall ws w -> reduce true RStart (w ++ r) = reduce true RStart r.
Proof.
  induction w as [|c w IH]; intros r Hw; [reflexivity|].
  inversion Hw as [|? ? Hc Hw']; subst. unfold ws in Hc. cbn [app reduce]. rewrite Hc. apply IH. exact Hw'.
Qed.

Lemma reduce_reindent m w r : Forall ws w ->
  reduce true m (LF :: w ++ r) = reduce true m (LF :: r).
Proof. intros Hw. rewrite !reduce_lf. destruct m; apply reduce_start_ws; exact Hw. Qed.

(* a closer [a; b] that ends a text lies after any char [y] of the text that it does not contain *)
Lemma app_last2 (u X m : text) (y a b : char) : u ++ y :: X = m ++ [a; b] -> b <> y -> a <> y ->
  exists X', X = X' ++ [a; b] /\ m = u ++ y :: X'.
Proof.
  intros E Hb Ha. revert m E. induction u as [|c u IH]; intros [|z m] E; cbn [app] in E.
  - (* [y :: X = [a; b]] *) injection E as E _. congruence.
  - injection E as <- ->. exists m. auto.
  - (* [c :: u ++ y :: X = [a; b]]: then [u] is empty and [y] is [b], or the left side is too long *)
    destruct u as [|d [|e u]]; [injection E as _ E _; congruence|discriminate E|discriminate E].
  - injection E as <- E. destruct (IH m E) as (X' & -> & ->). exists X'. auto.
Qed.

(* [z :: Z] is [w ++ [LF]] in [payload_trailing_blanks] and [LF :: w] in [payload_reindent] *)
Lemma comment_reducer_insert x p z Z X : ws z ->
  (forall m r, reduce (x =? STAR)%N m (z :: Z ++ r) = reduce (x =? STAR)%N m (LF :: r)) ->
  line_comment (SLASH :: x :: p ++ LF :: X) \/ closed_block (SLASH :: x :: p ++ LF :: X) ->
  comment_reducer (SLASH :: x :: p ++ z :: Z ++ X) = comment_reducer (SLASH :: x :: p ++ LF :: X).
Proof.
  intros HZ Hred [[b Eb]|[m Em]].
  - injection Eb as -> _.
    rewrite !comment_reducer_line. destruct (line_body_ws p) as [pb Hpb].
    rewrite (Hpb z (Z ++ X) HZ), (Hpb LF X eq_refl).
    f_equal. apply reduce_congr. intros m0. apply Hred.
  - injection Em as -> Em.
    destruct (app_last2 p X m LF STAR SLASH Em) as (X' & -> & ->); [discriminate|discriminate|].
    rewrite (app_assoc Z), (app_comm_cons (Z ++ X')), (app_comm_cons X'), !(app_assoc p).
    rewrite !comment_reducer_block. destruct (block_body_ws p) as [pb Hpb].
    rewrite (Hpb z (Z ++ X') HZ), (Hpb LF X' eq_refl).
    f_equal. apply reduce_congr. intros m0. apply Hred.
Qed.

Lemma payload_ok_closed t : in_block_comment (final_status t) = false -> payload_ok t = true.
Proof.
  intros Hc. unfold payload_ok, payload_stream. rewrite stream_ok_concat, forallb_forall.
  intros s Hs. apply in_map_iff in Hs. destruct Hs as (it & <- & Hit).
  destruct it as [[[[|] o] s]|]; cbn [item_stream].
  - reflexivity.
  - destruct (ungrouped_closed_shape t o s Hc Hit) as [[b ->]|[m ->]].
    + rewrite comment_reducer_line. apply stream_ok_map_some.
    + rewrite comment_reducer_block. apply stream_ok_map_some.
  - exfalso. exact (ungrouped_no_panic t Hit).
Qed.

Definition item_payload (it : option slice_item) : text := stream_chars (item_stream it).
Lemma payload_concat t : payload_ok t = true ->
  payload t = concat (map item_payload (ungrouped t)).
Proof.
  unfold payload_ok, payload, payload_stream. rewrite stream_ok_concat. intros H.
  rewrite (stream_chars_concat _ H), map_map. reflexivity.
Qed.

Lemma no_comment_payload t : no_comment_slice t -> payload_stream t = [].
Proof.
  intros H. apply concat_nil_Forall, Forall_map, Forall_forall.
  intros [[[[|] o] s]|] Hin; cbn [item_stream]; [reflexivity| |].
  - destruct (H o s Hin).
  - destruct (ungrouped_no_panic t Hin).
Qed.

Lemma changed_no_comment src new : payload_ok src = true -> no_comment_slice new ->
  changed src new = Some (negb (eqb_text (payload src) [])).
Proof.
  intros Hok Hnew. pose proof (no_comment_payload new Hnew) as Hn.
  rewrite changed_spec; [|exact Hok|unfold payload_ok; rewrite Hn; reflexivity].
  unfold payload at 2. rewrite Hn. reflexivity.
Qed.

Lemma payload_detects_loss src new o s body c :
  payload_ok src = true ->
  In (Some (CComment, o, s)) (ungrouped src) ->
  remove_comment_header s = Some body ->
  In c body -> is_whitespace c = false -> c <> STAR ->
  no_comment_slice new ->
  changed src new = Some true.
Proof.
  intros Hok Hin Hb Hc Hws Hst Hnew. rewrite (changed_no_comment src new Hok Hnew).
  assert (Hp : In c (payload src)).
  { rewrite (payload_concat src Hok). apply in_concat.
    exists (item_payload (Some (CComment, o, s))). split; [apply in_map; exact Hin|].
    unfold item_payload, item_stream, comment_reducer. rewrite Hb, stream_chars_map_some.
    apply reduce_keeps; assumption. }
  destruct (payload src); [destruct Hp|reflexivity].
Qed.

Lemma payload_nil_iff src : payload_ok src = true ->
  (payload src = [] <->
   forall o s, In (Some (CComment, o, s)) (ungrouped src) -> comment_reducer s = Some []).
Proof.
  intros Hok. rewrite (payload_concat src Hok).
  etransitivity; [apply concat_nil_Forall|]. rewrite Forall_map, Forall_forall.
  assert (Hall : forall it, In it (ungrouped src) -> stream_ok (item_stream it) = true).
  { unfold payload_ok, payload_stream in Hok. rewrite stream_ok_concat, forallb_forall in Hok.
    intros it Hin. apply Hok. apply in_map. exact Hin. }
  split.
  - intros H o s Hin. specialize (H _ Hin). specialize (Hall _ Hin).
    unfold item_payload in H. cbn [item_stream] in *.
    destruct (comment_reducer s) as [cs|]; [|discriminate Hall].
    rewrite stream_chars_map_some in H. rewrite H. reflexivity.
  - intros H [[[[|] o] s]|] Hin; unfold item_payload; cbn [item_stream]; [reflexivity| |reflexivity].
    rewrite (H o s Hin). reflexivity.
Qed.

Lemma trivial_loss_undetected src new : payload_ok src = true ->
  (forall o s, In (Some (CComment, o, s)) (ungrouped src) -> comment_reducer s = Some []) ->
  no_comment_slice new ->
  changed src new = Some false.
Proof.
  intros Hok Htriv Hnew.
  rewrite (changed_no_comment src new Hok Hnew), (proj2 (payload_nil_iff src Hok) Htriv). reflexivity.
Qed.

Lemma payload_insert t1 t2 A B1 B2 R :
  classify t1 = A ++ (KStartComment, SLASH) :: B1 ++ R ->
  classify t2 = A ++ (KStartComment, SLASH) :: B2 ++ R ->
  Forall inside_item B1 -> Forall inside_item B2 -> B1 <> [] -> B2 <> [] ->
  comment_reducer (SLASH :: map snd B1 ++ crest R) = comment_reducer (SLASH :: map snd B2 ++ crest R) ->
  payload_stream t1 = payload_stream t2.
Proof.
  intros E1 E2 H1 H2 N1 N2 Ec. unfold payload_stream, ungrouped. rewrite E1, E2. f_equal.
  apply ung_go_congr. intros m s s' acc off off'.
  assert (Hcom : forall s s' off off',
            map item_stream (ung_go UComment s [SLASH] off (B1 ++ R)) =
            map item_stream (ung_go UComment s' [SLASH] off' (B2 ++ R))).
  { intros. rewrite !ung_go_comment, (crest_inside B1 R H1), (crest_inside B2 R H2),
      (ctail_inside B1 R H1), (ctail_inside B2 R H2).
    cbn [map item_stream rev app]. rewrite Ec. f_equal. apply ung_go_offsets. }
  destruct m; cbn [ung_go is_comment inside_comment].
  - apply Hcom.
  - cbn [map item_stream]. f_equal. apply Hcom.
  - (* the opener ends the comment that is open, and the next item panics *)
    destruct H1 as [|[k1 c1] B1' Hk1 _]; [contradiction|]. destruct H2 as [|[k2 c2] B2' Hk2 _]; [contradiction|].
    cbn [app]. rewrite !ung_go_idle_inside by assumption. reflexivity.
Qed.

Lemma comment_closed_shape t A B R : classify t = A ++ (KStartComment, SLASH) :: B ++ R ->
  Forall inside_item B -> in_block_comment (final_status t) = false ->
  line_comment (SLASH :: map snd B ++ crest R) \/ closed_block (SLASH :: map snd B ++ crest R).
Proof.
  intros E HB Hc. pose proof (classify_wf_closed t Hc) as H. rewrite E in H.
  apply kc_wf_suffix in H. destruct H as [w H].
  destruct (comment_start _ _ _ _ H) as (_ & d & l' & w' & El & _ & Hw & Hpre).
  destruct (comment_run fin_closed l' w' [SLASH; d] 0 Hw Hpre) as [G _].
  rewrite <- (crest_inside B R HB), El. destruct G as [G|[G|[_ [p []]]]]; auto.
Qed.

(* [crest C] is the rest of the comment: that it begins like [q] is what lets [payload_blanks]
   apply its hypothesis on the reducer *)
Lemma insert_classify a x p w q A B C :
  classify (a ++ SLASH :: x :: p ++ q) = A ++ (KStartComment, SLASH) :: B ++ C ->
  length A = length a -> length B = S (length p) -> Forall inside_item B ->
  Forall blank w -> boundary_ok (x :: p) w q ->
  exists W, Forall inside_item W /\ map snd W = w /\ map snd B = x :: p /\
    hd_error (crest C) = hd_error q /\
    classify (a ++ SLASH :: x :: p ++ w ++ q) = A ++ (KStartComment, SLASH) :: B ++ W ++ C.
Proof.
  intros Hd HlA HlB HinB Hw Hbd. unfold classify in *.
  destruct (classify_before_opener x (p ++ q) (p ++ w ++ q) a SNormal A _ I Hd HlA)
    as (stA & ER & E1 & Hok2).
  rewrite E1.
  destruct (step_ok stA SLASH _ Hok2) as (k0 & st0 & Es & Hok0).
  rewrite (classify_from_cons _ _ _ _ _ Es) in ER. injection ER as -> ER.
  assert (Es1 : step stA SLASH (x :: p ++ w ++ q) = Some (KStartComment, st0))
    by (rewrite <- Es; apply step_slash_peek1).
  rewrite (classify_from_cons _ _ _ _ _ Es1).
  assert (Hc0 : comment_status st0 = true).
  { destruct HinB as [|[kb cb] B' Hkb _]; [discriminate HlB|].
    exact (inside_comment_status st0 _ kb cb (B' ++ C) Hok0 ER Hkb). }
  destruct (classify_comment_local w q (x :: p) st0 B C Hc0 Hok0 (st_ok_hd _ _ _ _ Hok0) ER HlB HinB Hbd)
    as (st1 & Hc1 & Hokq & Hokw & EP & EC & E).
  cbn [app] in E. rewrite E, (classify_blanks q w st1 Hc1 Hokw Hw), <- EC.
  exists (map (fun c => (kind_in st1, c)) w).
  split; [apply Forall_map, Forall_forall; intros c _; apply kind_in_inside|].
  split; [rewrite map_map; apply map_id|]. split; [exact EP|]. split; [|reflexivity].
  rewrite EC. destruct q as [|c q']; [reflexivity|]. destruct (step_ok st1 c q' Hokq) as (k & st' & Es' & _).
  rewrite (classify_from_cons _ _ _ _ _ Es'). reflexivity.
Qed.

(* [X] is the rest of the comment, of which [insert_classify] gives only the first char *)
Lemma payload_blanks a x p w q A B C :
  classify (a ++ SLASH :: x :: p ++ q) = A ++ (KStartComment, SLASH) :: B ++ C ->
  length A = length a -> length B = S (length p) -> Forall inside_item B ->
  Forall blank w -> boundary_ok (x :: p) w q ->
  (forall X, hd_error X = hd_error q ->
     line_comment (SLASH :: x :: p ++ X) \/ closed_block (SLASH :: x :: p ++ X) ->
     comment_reducer (SLASH :: x :: p ++ w ++ X) = comment_reducer (SLASH :: x :: p ++ X)) ->
  in_block_comment (final_status (a ++ SLASH :: x :: p ++ q)) = false ->
  payload_stream (a ++ SLASH :: x :: p ++ w ++ q) = payload_stream (a ++ SLASH :: x :: p ++ q).
Proof.
  intros Hd HlA HlB HinB Hw Hbd Hred Hcl.
  destruct (insert_classify a x p w q A B C Hd HlA HlB HinB Hw Hbd) as (W & HinW & EW & EP & HX & E1).
  rewrite (app_assoc B) in E1.
  apply (payload_insert _ _ A (B ++ W) B C E1 Hd); [apply Forall_app; auto|exact HinB| | |].
  - intros E. apply app_eq_nil in E. destruct E as [-> _]. discriminate HlB.
  - intros ->. discriminate HlB.
  - pose proof (comment_closed_shape _ A B C Hd HinB Hcl) as Hshape. rewrite EP in Hshape.
    rewrite map_app, EP, EW, <- app_assoc. exact (Hred _ HX Hshape).
Qed.

Lemma payload_trailing_blanks a x p w q A B C :
  classify (a ++ SLASH :: x :: p ++ LF :: q) = A ++ (KStartComment, SLASH) :: B ++ C ->
  length A = length a -> length B = S (length p) -> Forall inside_item B ->
  Forall blank w ->
  in_block_comment (final_status (a ++ SLASH :: x :: p ++ LF :: q)) = false ->
  payload_stream (a ++ SLASH :: x :: p ++ w ++ LF :: q) = payload_stream (a ++ SLASH :: x :: p ++ LF :: q).
Proof.
  intros Hd HlA HlB HinB Hw Hcl. pose proof (blank_ws w Hw) as Hws.
  apply (payload_blanks a x p w (LF :: q) A B C Hd HlA HlB HinB Hw (boundary_trailing _ w q Hw)); [|exact Hcl].
  intros X HX Hshape. destruct X as [|c X']; [discriminate HX|]. injection HX as ->.
  destruct Hws as [|z w' Hz Hws]; [reflexivity|]. cbn [app].
  replace (w' ++ LF :: X') with ((w' ++ [LF]) ++ X') by (rewrite <- app_assoc; reflexivity).
  apply comment_reducer_insert; [exact Hz| |exact Hshape].
  intros m r. rewrite <- app_assoc. exact (reduce_trailing_blanks _ m (z :: w') r (Forall_cons z Hz Hws)).
Qed.

Lemma payload_reindent a p w q A B C :
  classify (a ++ SLASH :: STAR :: p ++ LF :: q) = A ++ (KStartComment, SLASH) :: B ++ C ->
  length A = length a -> length B = S (S (length p)) -> Forall inside_item B ->
  Forall blank w ->
  in_block_comment (final_status (a ++ SLASH :: STAR :: p ++ LF :: q)) = false ->
  payload_stream (a ++ SLASH :: STAR :: p ++ LF :: w ++ q) = payload_stream (a ++ SLASH :: STAR :: p ++ LF :: q).
Proof.
  intros Hd HlA HlB HinB Hw Hcl.
  assert (Ht : forall y, a ++ SLASH :: STAR :: p ++ LF :: y = a ++ SLASH :: STAR :: (p ++ [LF]) ++ y).
  { intros y. rewrite <- app_assoc. reflexivity. }
  rewrite !Ht in *.
  apply (payload_blanks a STAR (p ++ [LF]) w q A B C Hd HlA); [|exact HinB|exact Hw| | |exact Hcl].
  - rewrite app_length. cbn [length]. lia.
  - right. rewrite app_comm_cons, last_last. split; discriminate.
  - intros X _ Hshape. rewrite <- !app_assoc in *. apply (comment_reducer_insert STAR p LF w X); [reflexivity| |exact Hshape].
    intros m r. exact (reduce_reindent m w r (blank_ws w Hw)).
Qed.

Lemma changed_total_refuted : exists a b, changed a b = None.
Proof. exists [SLASH; STAR], []. vm_compute. reflexivity. Qed.

Lemma mid_line_star_refuted : exists pre post,
  changed (pre ++ [STAR] ++ post) (pre ++ post) = Some false /\
  last pre 0%N = 97%N /\ hd 0%N post = 98%N.
Proof.
  exists [SLASH; STAR; LF; SP; 97%N], [98%N; SP; STAR; SLASH]. vm_compute. auto.
Qed.

Lemma words_merged_refuted : exists pre post,
  changed (pre ++ [SP] ++ post) (pre ++ post) = Some false /\
  last pre 0%N = 97%N /\ hd 0%N post = 98%N.
Proof.
  exists [SLASH; SLASH; SP; 97%N], [98%N; LF]. vm_compute. auto.
Qed.
