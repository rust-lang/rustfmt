(* C03/Props.v — property C03: the comment machinery of src/comment.rs
   (CharClasses, the two slice iterators, CommentReducer, changed_comment_content,
   recover_comment_removed).  Offsets are byte offsets ([blen]).  A panic of the
   Rust code is the value None of the model. *)
From V Require Import Base.Text C03.Model C03.Lemmas.
Local Open Scope nat_scope.

(* C03 every char is classified exactly once, in order *)
Theorem classify_chars : forall t, map snd (classify t) = t.
Proof. exact classify_chars. Qed.
Print Assumptions classify_chars.

(* C03 CharClasses::next never hits an assert or a counter underflow *)
Theorem classify_no_panic : forall t, classify_panics t = false.
Proof. exact classify_no_panic. Qed.
Print Assumptions classify_no_panic.

(* C03 grammar of the kinds: code, or StartComment InComment+ EndComment (line comment ends at LF, block comment at star slash) *)
Theorem classify_kind_wf : forall t, kc_wf fin_any WCode (classify t).
Proof. exact classify_wf. Qed.
Print Assumptions classify_kind_wf.

(* C03 StartComment is only produced at a slash that is followed by a slash or a star *)
Theorem classify_start_comment : forall t l1 c l2,
  classify t = l1 ++ (KStartComment, c) :: l2 ->
  c = SLASH /\ exists d l2', l2 = (KInComment, d) :: l2' /\ (d = SLASH \/ d = STAR).
Proof. exact classify_start_comment. Qed.
Print Assumptions classify_start_comment.

(* C03 only six of the ten kinds are produced by CharClasses (the others come from LineClasses) *)
Theorem classify_kinds : forall t k c, In (k, c) (classify t) ->
  k = KNormal \/ k = KStartComment \/ k = KInComment \/ k = KEndComment \/
  k = KInStringCommented \/ k = KInString.
Proof. exact classify_kinds. Qed.
Print Assumptions classify_kinds.

(* C03 the panic!() arm of UngroupedCommentCodeSlices::next is unreachable *)
Theorem ungrouped_no_panic : forall t, ~ In None (ungrouped t).
Proof. exact ungrouped_no_panic. Qed.
Print Assumptions ungrouped_no_panic.

(* C03 the ungrouped slices partition the text *)
Theorem ungrouped_partition : forall t, items_text (ungrouped t) = t.
Proof. exact ungrouped_partition. Qed.
Print Assumptions ungrouped_partition.

(* C03 each ungrouped slice starts at the byte length of the slices before it *)
Theorem ungrouped_offsets : forall t l1 k o s l2,
  ungrouped t = l1 ++ Some (k, o, s) :: l2 -> o = blen (items_text l1).
Proof. exact ungrouped_offsets. Qed.
Print Assumptions ungrouped_offsets.

(* C03 every ungrouped Comment slice begins with two slashes or slash star *)
Theorem ungrouped_comment_slices_are_comments : forall t o s,
  In (Some (CComment, o, s)) (ungrouped t) -> starts2 s.
Proof. exact ungrouped_comment_starts2. Qed.
Print Assumptions ungrouped_comment_slices_are_comments.

(* C03 when the text does not end inside a block comment every ungrouped Comment slice is one whole comment *)
Theorem ungrouped_closed_shape : forall t o s,
  in_block_comment (final_status t) = false ->
  In (Some (CComment, o, s)) (ungrouped t) -> line_comment s \/ closed_block s.
Proof. exact ungrouped_closed_shape. Qed.
Print Assumptions ungrouped_closed_shape.

(* C03 CommentCodeSlices::next never panics (the byte slice of two bytes is always in range) *)
Theorem slices_no_panic : forall t, ~ In None (slices t).
Proof. exact slices_no_panic. Qed.
Print Assumptions slices_no_panic.

(* C03 the grouped slices partition the text *)
Theorem slices_partition : forall t, items_text (slices t) = t.
Proof. exact slices_partition. Qed.
Print Assumptions slices_partition.

(* C03 each grouped slice starts at the byte length of the slices before it *)
Theorem slices_offsets : forall t l1 k o s l2,
  slices t = l1 ++ Some (k, o, s) :: l2 -> o = blen (items_text l1).
Proof. exact slices_offsets. Qed.
Print Assumptions slices_offsets.

(* C03 the grouped slices alternate Normal, Comment, Normal, ... starting with Normal *)
Theorem slices_alternate : forall t, alternate CNormal (slices t).
Proof. exact slices_alternate. Qed.
Print Assumptions slices_alternate.

(* C03 every grouped Comment slice begins with two slashes or slash star *)
Theorem comment_slices_are_comments : forall t o s,
  In (Some (CComment, o, s)) (slices t) -> starts2 s.
Proof. exact slices_comment_starts2. Qed.
Print Assumptions comment_slices_are_comments.

(* C03 changed_comment_content answers false exactly when both payloads are computed without panic and are equal *)
Theorem changed_iff : forall a b,
  changed a b = Some false <-> payload_ok a = true /\ payload_ok b = true /\ payload a = payload b.
Proof. exact changed_false_iff. Qed.
Print Assumptions changed_iff.

(* C03 changed_comment_content compares the payloads *)
Theorem changed_spec : forall a b, payload_ok a = true -> payload_ok b = true ->
  changed a b = Some (negb (eqb_text (payload a) (payload b))).
Proof. exact changed_spec. Qed.
Print Assumptions changed_spec.

(* C03 the payload computation cannot panic on a text that does not end inside a block comment *)
Theorem payload_ok_closed : forall t, in_block_comment (final_status t) = false -> payload_ok t = true.
Proof. exact payload_ok_closed. Qed.
Print Assumptions payload_ok_closed.

(* C03 safety net: the result is the source verbatim, or the new text and then it has the payload of the source *)
Theorem net_sound : forall new src r, recover new src = Some r ->
  r = src \/ (r = new /\ payload_ok src = true /\ payload_ok new = true /\ payload new = payload src).
Proof. exact recover_sound. Qed.
Print Assumptions net_sound.

(* C03 safety net: recover_comment_removed as a function of the payloads *)
Theorem net_spec : forall new src, payload_ok src = true -> payload_ok new = true ->
  recover new src = Some (if eqb_text (payload src) (payload new) then new else src).
Proof. exact recover_spec. Qed.
Print Assumptions net_spec.

(* C03 the payload of a line comment is its non-whitespace chars after the opener *)
Theorem payload_line_comment : forall b,
  comment_reducer (SLASH :: SLASH :: b) =
  Some (filter (fun c => negb (is_whitespace c)) (line_body b)).
Proof. exact comment_reducer_line_filter. Qed.
Print Assumptions payload_line_comment.

(* C03 same text up to trimming of trailing blanks: blanks before a newline inside a comment are not seen *)
Theorem payload_insensitive_trailing_blanks : forall a x p w q A B C,
  classify (a ++ SLASH :: x :: p ++ LF :: q) = A ++ (KStartComment, SLASH) :: B ++ C ->
  length A = length a -> length B = S (length p) -> Forall inside_item B ->
  Forall blank w ->
  in_block_comment (final_status (a ++ SLASH :: x :: p ++ LF :: q)) = false ->
  payload_stream (a ++ SLASH :: x :: p ++ w ++ LF :: q) = payload_stream (a ++ SLASH :: x :: p ++ LF :: q).
Proof. exact payload_trailing_blanks. Qed.
Print Assumptions payload_insensitive_trailing_blanks.

(* C03 same text up to re-indentation: blanks at the start of a continuation line of a block comment are not seen *)
Theorem payload_insensitive_reindent : forall a p w q A B C,
  classify (a ++ SLASH :: STAR :: p ++ LF :: q) = A ++ (KStartComment, SLASH) :: B ++ C ->
  length A = length a -> length B = S (S (length p)) -> Forall inside_item B ->
  Forall blank w ->
  in_block_comment (final_status (a ++ SLASH :: STAR :: p ++ LF :: q)) = false ->
  payload_stream (a ++ SLASH :: STAR :: p ++ LF :: w ++ q) = payload_stream (a ++ SLASH :: STAR :: p ++ LF :: q).
Proof. exact payload_reindent. Qed.
Print Assumptions payload_insensitive_reindent.

(* C03 a dropped comment that contains a char other than whitespace and star (after its opener) is always detected *)
Theorem payload_detects_loss : forall src new o s body c,
  payload_ok src = true ->
  In (Some (CComment, o, s)) (ungrouped src) ->
  remove_comment_header s = Some body ->
  In c body -> is_whitespace c = false -> c <> STAR ->
  no_comment_slice new ->
  changed src new = Some true.
Proof. exact payload_detects_loss. Qed.
Print Assumptions payload_detects_loss.

(* C03 the losses that are not detected: exactly the texts all of whose comments reduce to nothing *)
Theorem payload_nil_iff : forall src, payload_ok src = true ->
  (payload src = [] <->
   forall o s, In (Some (CComment, o, s)) (ungrouped src) -> comment_reducer s = Some []).
Proof. exact payload_nil_iff. Qed.
Print Assumptions payload_nil_iff.

(* C03 dropping all comments of such a text is not detected *)
Theorem trivial_loss_undetected : forall src new, payload_ok src = true ->
  (forall o s, In (Some (CComment, o, s)) (ungrouped src) -> comment_reducer s = Some []) ->
  no_comment_slice new ->
  changed src new = Some false.
Proof. exact trivial_loss_undetected. Qed.
Print Assumptions trivial_loss_undetected.

(* C03 the trivial line comments: only whitespace after the opener *)
Theorem trivial_line_comment : forall b,
  comment_reducer (SLASH :: SLASH :: b) = Some [] <-> Forall (fun c => is_whitespace c = true) (line_body b).
Proof. exact comment_reducer_line_nil. Qed.
Print Assumptions trivial_line_comment.

(* C03 the trivial block comments: whitespace up to the first newline, then only whitespace and single stars *)
Theorem trivial_block_comment : forall m,
  comment_reducer (SLASH :: STAR :: m ++ [STAR; SLASH]) = Some [] <-> trivial_block (block_body m).
Proof. exact comment_reducer_block_nil. Qed.
Print Assumptions trivial_block_comment.

(* C03 refuted: changed_comment_content is total; it panics on an unterminated block comment *)
Theorem changed_total_refuted : exists a b, changed a b = None.
Proof. exact changed_total_refuted. Qed.
Print Assumptions changed_total_refuted.

(* C03 refuted: only stars at the beginning of a line are ignored; at_start_line is never reset, so a star in the middle of a later line of a block comment can be lost unnoticed *)
Theorem mid_line_star_refuted : exists pre post,
  changed (pre ++ [STAR] ++ post) (pre ++ post) = Some false /\
  last pre 0%N = 97%N /\ hd 0%N post = 98%N.
Proof. exact mid_line_star_refuted. Qed.
Print Assumptions mid_line_star_refuted.

(* C03 refuted: equal payload implies the same words; all whitespace is ignored, so merged words are not noticed *)
Theorem words_merged_refuted : exists pre post,
  changed (pre ++ [SP] ++ post) (pre ++ post) = Some false /\
  last pre 0%N = 97%N /\ hd 0%N post = 98%N.
Proof. exact words_merged_refuted. Qed.
Print Assumptions words_merged_refuted.
